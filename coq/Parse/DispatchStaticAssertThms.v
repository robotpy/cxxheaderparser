(* _consume_static_assert as translated (regenerated, Gen/Dispatch.v), run by the interpreter
   of Parse/DispatchLang.v on symbolic remainders: a '(' is required, and exactly the
   parenthesized group is consumed. *)
From Coq Require Import NArith List.
Import ListNotations.
From CXV Require Import Gen.TokTy Parse.Balanced Parse.BalancedThms Parse.Declarator Parse.DispatchLang Gen.Dispatch.
Open Scope N_scope.

Theorem static_assert_skipped_exactly kw lp soup rp R ic :
  kty lp = T_LIT_40 -> kty rp = T_LIT_41 -> bal tk kty T_LIT_40 T_LIT_41 soup ->
  run prog_consume_static_assert ic kw (lp :: soup ++ rp :: R) = ODone R.
Proof.
  intros H1 H2 Hb. unfold run, prog_consume_static_assert. cbn [exec_block exec].
  rewrite H1. change (memN T_LIT_40 [T_LIT_40]) with true. cbn iota.
  rewrite (discard_exact tk kty T_LIT_40 T_LIT_41 soup rp R ltac:(discriminate) Hb H2). reflexivity.
Qed.

Theorem static_assert_needs_parenthesis kw x R ic :
  kty x <> T_LIT_40 -> run prog_consume_static_assert ic kw (x :: R) = OErr 1.
Proof. intros H. unfold run, prog_consume_static_assert. cbn. apply N.eqb_neq in H. rewrite H. reflexivity. Qed.
