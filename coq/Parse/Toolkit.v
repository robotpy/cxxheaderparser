(* What the symbolic runs of the token-list parsers on printed input share: tests on a written token, the first
   token of a list, bracket groups and the builders of strict-nested soups (SN_plain_tok .. SN_paren_if),
   comma-separated lists and the lower bound their length gives for the fuel of a loop. *)
From Coq Require Import NArith List Bool Lia Arith.
Import ListNotations.
From CXV Require Import Gen.TokTy Gen.ParserTables Parse.Balanced Parse.BalancedThms Parse.Declarator Parse.DeclSpec.
Open Scope N_scope.

(* Evaluates the closed tests on a written token: is a (ktok b), is a (mkTk T_NAME n), is_pfx_tok of either,
   memN (kty _) l of either.  Trap: never on [ktok w] with w a variable (the test unfolds into a big match). *)
Ltac isc :=
  repeat match goal with
  | |- context [is ?a (ktok ?b)] =>
      let e := eval vm_compute in (is a (ktok b)) in change (is a (ktok b)) with e
  | |- context [is ?a (mkTk T_NAME ?n)] =>
      let e := eval vm_compute in (is a (mkTk T_NAME n)) in change (is a (mkTk T_NAME n)) with e
  | |- context [is_pfx_tok (ktok ?b)] =>
      let e := eval vm_compute in (is_pfx_tok (ktok b)) in change (is_pfx_tok (ktok b)) with e
  | |- context [is_pfx_tok (mkTk T_NAME ?n)] =>
      let e := eval vm_compute in (is_pfx_tok (mkTk T_NAME n)) in change (is_pfx_tok (mkTk T_NAME n)) with e
  | |- context [memN (kty (ktok ?b)) ?l] =>
      let e := eval vm_compute in (memN (kty (ktok b)) l) in change (memN (kty (ktok b)) l) with e
  | |- context [memN (kty (mkTk T_NAME ?n)) ?l] =>
      let e := eval vm_compute in (memN (kty (mkTk T_NAME n)) l) in change (memN (kty (mkTk T_NAME n)) l) with e
  end; cbn [orb andb negb].

Lemma tk_eta t ty : kty t = ty -> t = mkTk ty (kval t).
Proof. destruct t. cbn. now intros ->. Qed.

Lemma is_kty a t : is a t = true -> kty t = a.
Proof. apply N.eqb_eq. Qed.

Definition headb (h : tk -> bool) (s : list tk) : bool := match s with t :: _ => h t | [] => true end.
Definition hd_out (cs : list N) : list tk -> bool := headb (fun t => negb (memN (kty t) cs)).

Lemma memN_In x l : memN x l = true -> In x l.
Proof.
  induction l as [|y r IH]; cbn [memN]; [discriminate|].
  destruct (N.eqb_spec x y) as [->|_]; [now left|]. intros H. right. now apply IH.
Qed.

Lemma memN_is c cs t : memN (kty t) cs = false -> memN c cs = true -> is c t = false.
Proof.
  unfold is. induction cs as [|y cs IH]; [discriminate|]. cbn [memN].
  destruct (N.eqb_spec (kty t) y) as [->|Hy]; [discriminate|]. intros H.
  destruct (N.eqb_spec c y) as [->|Hc]; [intros _; now apply N.eqb_neq|now apply IH].
Qed.

Lemma hd_out_is cs t r c : hd_out cs (t :: r) = true -> memN c cs = true -> is c t = false.
Proof. cbn [hd_out headb]. intros H. apply negb_true_iff in H. now apply memN_is. Qed.

Lemma hd_out_sub cs cs' s : forallb (fun c => memN c cs) cs' = true -> hd_out cs s = true -> hd_out cs' s = true.
Proof.
  intros Hs. destruct s as [|t r]; [reflexivity|]. cbn [hd_out headb]. intros H. apply negb_true_iff in H. apply negb_true_iff.
  induction cs' as [|c q IH]; [reflexivity|]. cbn [forallb] in Hs. apply andb_prop in Hs as [Hc Hq].
  cbn [memN]. fold (is c t). now rewrite (memN_is c cs t H Hc), IH.
Qed.

Lemma nor_memN t cs : negb (existsb (fun c => is c t) cs) = negb (memN (kty t) cs).
Proof.
  f_equal. induction cs as [|c q IH]; [reflexivity|]. cbn [existsb memN]. unfold is at 1. now destruct (kty t =? c).
Qed.

(* proves [forall s, foo s = hd_out [a; b; ...] s] for a fixed predicate whose body is
   [match s with t :: _ => negb (is a t || is b t || ...) | [] => true end] *)
Ltac as_set :=
  intros [|t r]; [reflexivity|]; cbn [hd_out headb]; rewrite <- nor_memN; cbn [existsb];
  now rewrite ?orb_assoc, orb_false_r.

Lemma follow_ok_set : forall s,
  follow_ok s = hd_out [STAR; AMP; T_DBL_AMP; T_const; T_volatile; LP; LB; T_NAME; T_ELLIPSIS; EQ] s.
Proof. as_set. Qed.

Lemma head_gate {A} (c : tk -> bool) X (e : tk -> list tk -> A) (k : A) :
  headb (fun a => negb (c a)) X = true -> match X with a :: r => if c a then e a r else k | [] => k end = k.
Proof. destruct X as [|a r]; [reflexivity|]. cbn [headb]. intros H. apply negb_true_iff in H. now rewrite H. Qed.

Lemma head_P (h : tk -> bool) :
  h (ktok STAR) = true -> h (ktok AMP) = true -> h (ktok T_DBL_AMP) = true -> h (ktok LP) = true -> h (ktok LB) = true ->
  forall ls core rest, headb h (core ++ rest) = true -> headb h (P ls core ++ rest) = true.
Proof.
  intros H1 H2 H3 H4 H5. induction ls as [|l r IH]; intros core rest Hc; [exact Hc|].
  destruct l as [c v| | |s|ps va]; [exact H1|exact H2|exact H3| |]; cbn [P].
  - destruct (starts_pfx r); [exact H4|]. cbn [paren]. rewrite <- app_assoc. apply IH.
    destruct core; [exact H5|exact Hc].
  - destruct (starts_pfx r); [exact H4|]. cbn [paren]. rewrite <- app_assoc. apply IH.
    destruct core; [exact H4|exact Hc].
Qed.

Lemma decl_first (h : tk -> bool) t nm :
  h (ktok T_const) = true -> h (ktok T_volatile) = true -> h (ktok T_void) = true -> (forall b, h (mkTk T_NAME b) = true) ->
  exists t0 r0, decl_toks t nm = t0 :: r0 /\ h t0 = true.
Proof.
  intros Hc Hv H0 Hn. unfold decl_toks, base_toks. destruct (base_of t) as [[b c] v].
  destruct c, v; cbn [cvtoks app]; try (eexists; eexists; split; [reflexivity|assumption]).
  destruct (b =? 0); eexists; eexists; (split; [reflexivity|auto]).
Qed.

Lemma consume_group o c inner rest :
  assocN o balanced_token_map = Some c -> c <> GT -> SNk inner ->
  consume kty [c] [ktok o] (inner ++ ktok c :: rest) = Ok (ktok o :: inner ++ [ktok c], rest).
Proof.
  intros Ho Hc Hs. exact (consume_strict_group tk kty (ktok o) (ktok c) c inner rest Hs Ho Hc eq_refl).
Qed.

Lemma discard_group o c soup rest :
  o <> c -> bal tk kty o c soup -> discard kty o c 1 (soup ++ ktok c :: rest) = Ok rest.
Proof. intros Hoc Hb. now apply discard_exact. Qed.

Lemma middle_group {A} (a b : A) l : middle (a :: l ++ [b]) = l.
Proof. unfold middle. cbn [tl]. apply removelast_last. Qed.

Definition plain (c : N) : bool :=
  negb (memN c end_balanced_tokens) && match assocN c balanced_token_map with None => true | Some _ => false end.

Lemma plain_spec c : plain c = true -> memN c end_balanced_tokens = false /\ assocN c balanced_token_map = None.
Proof.
  unfold plain. intros H. apply andb_prop in H as [H1 H2]. apply negb_true_iff in H1.
  now destruct (assocN c balanced_token_map).
Qed.

Lemma SN_plain_tok t l : plain (kty t) = true -> SNk l -> SNk (t :: l).
Proof. intros H Hl. destruct (plain_spec _ H). now apply SN_plain. Qed.

Lemma SN_group_tok o c l : assocN o balanced_token_map = Some c -> c <> GT -> SNk l -> SNk (ktok o :: l ++ [ktok c]).
Proof.
  intros Ho Hc H. change (l ++ [ktok c]) with (l ++ ktok c :: []).
  apply (SN_group tk kty (ktok o) (ktok c) c); [exact Ho|exact Hc|reflexivity|exact H|constructor].
Qed.

Lemma SN_paren l : SNk l -> SNk (ktok LP :: l ++ [ktok RP]).
Proof. now apply (SN_group_tok LP RP). Qed.

Lemma SN_bracket l : SNk l -> SNk (ktok LB :: l ++ [ktok RB]).
Proof. now apply (SN_group_tok LB RB). Qed.

Lemma SN_cvtoks c v : SNk (cvtoks c v).
Proof. destruct c, v; repeat (apply SN_plain_tok; [reflexivity|]); constructor. Qed.

Lemma SN_paren_if p l : SNk l -> SNk (paren p l).
Proof. destruct p; [apply SN_paren|trivial]. Qed.

Lemma join_cons2 x y l : join_comma (x :: y :: l) = x ++ ktok COMMA :: join_comma (y :: l).
Proof. reflexivity. Qed.

Fixpoint sepby (l : list (list tk)) (rest : list tk) : list tk :=
  match l with [] => rest | y :: l' => ktok COMMA :: y ++ sepby l' rest end.

Lemma join_comma_app x l rest : join_comma (x :: l) ++ rest = x ++ sepby l rest.
Proof.
  revert x. induction l as [|y l IH]; intros x; [reflexivity|].
  rewrite join_cons2, <- app_assoc. cbn [app sepby]. now rewrite IH.
Qed.

Lemma params_head (h : tk -> bool) ps va rest :
  h (ktok T_const) = true -> h (ktok T_volatile) = true -> h (ktok T_void) = true -> (forall b, h (mkTk T_NAME b) = true) ->
  h (ktok T_ELLIPSIS) = true -> (ps = [] -> va = false -> h (ktok RP) = true) ->
  exists t0 r0, params_toks ps va ++ ktok RP :: rest = t0 :: r0 /\ h t0 = true.
Proof.
  intros Hc Hv H0 Hn He Hr. unfold params_toks. destruct ps as [|[t nm] q]; cbn [map fst snd app].
  - destruct va; cbn [va_toks join_comma app]; eexists; eexists; (split; [reflexivity|auto]).
  - rewrite join_comma_app. destruct (decl_first h t nm Hc Hv H0 Hn) as (t0 & r0 & -> & H).
    now exists t0, (r0 ++ sepby (map (fun p => decl_toks (fst p) (snd p)) q ++ va_toks va) (ktok RP :: rest)).
Qed.

Section Commas.
  Context {A : Type} (pr : A -> list tk).

  (* item , item , ... , Z : the shape a loop that stops behind its last item reads *)
  Fixpoint commas (xs : list A) (Z : list tk) : list tk :=
    match xs with [] => Z | a :: q => pr a ++ ktok COMMA :: commas q Z end.

  Lemma join_comma_snoc xs z rest : join_comma (map pr xs ++ [z]) ++ rest = commas xs (z ++ rest).
  Proof.
    induction xs as [|x q IH]; [reflexivity|]. cbn [map app commas]. rewrite join_comma_app, <- IH.
    destruct (map pr q ++ [z]) as [|y l] eqn:E; [destruct q; discriminate|]. cbn [sepby]. now rewrite join_comma_app.
  Qed.

  Lemma commas_app xs Z rest : commas xs Z ++ rest = commas xs (Z ++ rest).
  Proof. induction xs as [|x q IH]; [reflexivity|]. cbn [commas]. now rewrite <- app_assoc, <- IH. Qed.
End Commas.

(* every separator is a token: a lower bound for the fuel a loop over a written list needs *)
Lemma join_comma_length x l : (length l <= length (join_comma (x :: l)))%nat.
Proof.
  revert x. induction l as [|y l IH]; intros x; [apply Nat.le_0_l|].
  rewrite join_cons2, app_length. specialize (IH y). cbn [length] in *. lia.
Qed.
