(* The parameter list of a function declaration with everything
   CxxParser._parse_parameter reads for one parameter: the type (base type,
   pointer loop, array suffix), the pack ellipsis, the name, the default value
   (`= expr`, read by _consume_value_until(",", ")")).  The declarator part is
   the model of Parse/Declarator.v (parse_base, cvptr, arrtype), the loop is
   _parse_parameters.  `auto` / concept placeholders, a parenthesised name and
   every base type other than a plain name or `void` (fundamental keywords,
   class keys, qualified or templated names: Using.alias_outside) are outside
   this model (code 4).
   Tied to the code by the differential run of harness/props/c01.py (the real
   _parse_parameters on the same token lists) and the DeclPin digest. *)
From Coq Require Import NArith List Bool Lia.
Import ListNotations.
From CXV Require Import Gen.TokTy Parse.Balanced Parse.BalancedThms Parse.Declarator Parse.DeclSpec Parse.DeclThms Parse.Using.
Open Scope N_scope.

Record xparam := mkXP { xp_ty : ty; xp_name : option N; xp_pack : bool; xp_default : option (list tk) }.
Definition xterms : list N := [COMMA; RP].

Definition param_x (fuel : nat) (toks : list tk) : dres (xparam * list tk) :=
  if alias_outside toks then DErr 4
  else
    match parse_base toks with
    | DErr e => DErr e
    | DOk (b, r) =>
        match cvptr fuel b r with
        | DErr e => DErr e
        | DOk (d, r1) =>
            if is_fn d then DErr 3
            else
              let '(pack, r2) := match r1 with
                                 | e :: r' => if is T_ELLIPSIS e then (true, r') else (false, r1)
                                 | [] => (false, r1)
                                 end in
              match r2 with
              | p :: _ => if is LP p then DErr 4 else
                  let '(nm, r3) := match r2 with
                                   | t :: r' => if is T_NAME t || is T_final t then (Some (kval t), r') else (None, r2)
                                   | [] => (None, r2)
                                   end in
                  let arr := match r3 with
                             | a :: r' => if is LB a then arrtype fuel d a r' else DOk (d, r3)
                             | [] => DOk (d, r3)
                             end in
                  match arr with
                  | DErr e => DErr e
                  | DOk (d1, r4) =>
                      match r4 with
                      | q :: r' =>
                          if is EQ q then
                            match consume_value_until kty xterms r' with
                            | Ok (v, r5) => DOk (mkXP d1 nm pack (Some v), r5)
                            | ErrEOF => DErr 2
                            | ErrUnexpected _ => DErr 1
                            | ErrInternal => DErr 3
                            end
                          else DOk (mkXP d1 nm pack None, r4)
                      | [] => DOk (mkXP d1 nm pack None, r4)
                      end
                  end
              | [] => DOk (mkXP d None pack None, r2)
              end
        end
    end.

(* convert fn(void) to fn() *)
Definition void_conv_x (ps : list xparam) : list xparam :=
  match ps with
  | [p] => match xp_ty p with TBase 0 _ _ => [] | _ => ps end
  | _ => ps
  end.

Fixpoint ploop_x (n fuel : nat) (acc : list xparam) (toks : list tk) {struct n} : dres (list xparam * bool * list tk) :=
  match n with
  | O => DErr 9
  | S n' =>
      match toks with
      | e :: r1 =>
          if is T_ELLIPSIS e then
            match r1 with
            | c :: r2 => if is RP c then DOk (void_conv_x (rev acc), true, r2) else DErr 1
            | [] => DErr 2
            end
          else
            match param_x fuel toks with
            | DOk (p, r') =>
                match r' with
                | s :: r2 =>
                    if is COMMA s then ploop_x n' fuel (p :: acc) r2
                    else if is RP s then DOk (void_conv_x (rev (p :: acc)), false, r2)
                    else DErr 1
                | [] => DErr 2
                end
            | DErr e' => DErr e'
            end
      | [] => DErr 2
      end
  end.

(* entered after '(' *)
Definition params_x (fuel : nat) (toks : list tk) : dres (list xparam * bool * list tk) :=
  match toks with
  | t :: r => if is RP t then DOk ([], false, r) else ploop_x (S (length toks)) fuel [] toks
  | [] => DErr 2
  end.

Definition xp_toks (p : xparam) : list tk :=
  decl_toks (xp_ty p) (xp_name p) ++ match xp_default p with Some v => ktok EQ :: v | None => [] end.

Definition xp_ok (p : xparam) : Prop :=
  DeclSpec.wf (xp_ty p) /\ obj_ty (xp_ty p) /\ xp_pack p = false /\
  match xp_default p with Some v => Expr tk kty xterms v | None => True end.

Fixpoint xps_toks (ps : list xparam) (va : bool) : list tk :=
  match ps with
  | [] => if va then [ktok T_ELLIPSIS] else []
  | [p] => xp_toks p ++ (if va then [ktok COMMA; ktok T_ELLIPSIS] else [])
  | p :: q => xp_toks p ++ ktok COMMA :: xps_toks q va
  end.

Lemma param_x_head t nm sep R : wf t -> kind_of t <> KFn ->
  sep = ktok EQ \/ sep = ktok COMMA \/ sep = ktok RP ->
  ev (fun f => param_x f (decl_toks t nm ++ sep :: R))
     (if is EQ sep then
        match consume_value_until kty xterms R with
        | Ok (v, r5) => DOk (mkXP t nm false (Some v), r5)
        | ErrEOF => DErr 2
        | ErrUnexpected _ => DErr 1
        | ErrInternal => DErr 3
        end
      else DOk (mkXP t nm false None, sep :: R)).
Proof.
  intros Hwf Hk Hsep.
  assert (Hs : stops (sep :: R) = true /\ nolb (sep :: R) = true /\ nocv (sep :: R) = true /\
               hd_out [T_DBL_COLON; T_LIT_60] (sep :: R) = true).
  { destruct Hsep as [->|[->| ->]]; repeat split. }
  destruct Hs as (Hst & Hnl & Hncv & Hnq).
  destruct (wf_view t nm Hwf) as (b & c & v & ls & Ed & Ew & Hleg & Hok & Hke).
  destruct (declarator_arr false b c v ls nm (sep :: R) Hleg Hok ltac:(now rewrite Hke) Hst eq_refl Hnl)
    as (d & X & H1 & Hnf & HX).
  rewrite Ew in HX.
  assert (Hpb : parse_base (decl_toks t nm ++ sep :: R) = DOk (TBase b c v, P ls (name_toks nm) ++ sep :: R)).
  { rewrite Ed, <- app_assoc. now apply parse_base_printed. }
  assert (Hout : alias_outside (decl_toks t nm ++ sep :: R) = false).
  { apply alias_outside_printed. destruct nm; [reflexivity|exact Hnq]. }
  destruct HX as [[-> ->]|(A & -> & H2)].
  - apply (ev_with H1), ev_always. intros f E. unfold param_x. rewrite Hout, Hpb, E, Hnf.
    destruct nm as [n|], Hsep as [->|[->| ->]]; reflexivity.
  - apply (ev_with H1), (ev_with H2), ev_always. intros f E2 E1. unfold param_x. rewrite Hout, Hpb, E1, Hnf.
    (* an isc evaluates the closed token tests, then reduces the match or let they decide, and only that closes the
       next ones.  Three rounds: the ellipsis test; the `(` and name tests; the `[` test *)
    destruct nm as [n|]; cbn [name_toks app]; do 3 isc; rewrite E2; destruct Hsep as [->|[->| ->]]; reflexivity.
Qed.

Lemma param_x_rt p (cm : bool) R : xp_ok p ->
  ev (fun f => param_x f (xp_toks p ++ ktok (if cm then COMMA else RP) :: R)) (DOk (p, ktok (if cm then COMMA else RP) :: R)).
Proof.
  destruct p as [t nm pk df]. unfold xp_ok, xp_toks. cbn [xp_ty xp_name xp_pack xp_default].
  intros (Hwf & [Hk _] & -> & Hdf).
  destruct df as [v|].
  - rewrite <- app_assoc. cbn [app].
    apply (ev_with (param_x_head t nm (ktok EQ) (v ++ ktok (if cm then COMMA else RP) :: R) Hwf Hk (or_introl eq_refl))), ev_always.
    intros f ->. isc.
    rewrite (value_is_whole tk kty xterms v _ Hdf); [reflexivity|]. destruct cm; reflexivity.
  - rewrite app_nil_r.
    assert (Hsep : ktok (if cm then COMMA else RP) = ktok EQ \/ ktok (if cm then COMMA else RP) = ktok COMMA \/
                   ktok (if cm then COMMA else RP) = ktok RP) by (destruct cm; auto).
    apply (ev_with (param_x_head t nm _ R Hwf Hk Hsep)), ev_always. intros f ->. destruct cm; reflexivity.
Qed.

Lemma xp_head p X : exists t0 r0, xp_toks p ++ X = t0 :: r0 /\ is T_ELLIPSIS t0 = false /\ is RP t0 = false.
Proof.
  unfold xp_toks. destruct (param_first (xp_ty p) (xp_name p)) as (t0 & r0 & E & H1 & H2).
  rewrite <- app_assoc, E. eexists; eexists; split; [reflexivity|split; assumption].
Qed.

Lemma ploop_x_step p X n f acc : param_x f (xp_toks p ++ X) = DOk (p, X) ->
  ploop_x (S n) f acc (xp_toks p ++ X) =
    match X with
    | s :: r2 =>
        if is COMMA s then ploop_x n f (p :: acc) r2
        else if is RP s then DOk (void_conv_x (rev (p :: acc)), false, r2)
        else DErr 1
    | [] => DErr 2
    end.
Proof.
  intros E. cbn [ploop_x]. destruct (xp_head p X) as (t0 & r0 & Eh & He & _).
  rewrite Eh, He, <- Eh. now rewrite E.
Qed.

(* [n] as params_x gives it: more than the tokens handed over, and every round takes one *)
Lemma ploop_x_rt : forall ps acc va rest n,
  Forall xp_ok ps -> ps <> [] -> (length (xps_toks ps va ++ ktok RP :: rest) < n)%nat ->
  ev (fun f => ploop_x n f acc (xps_toks ps va ++ ktok RP :: rest)) (DOk (void_conv_x (rev acc ++ ps), va, rest)).
Proof.
  induction ps as [|p q IH]; intros acc va rest n Hok Hne Hn; [contradiction|].
  inversion Hok as [|? ? Hp Hq]; subst.
  destruct n as [|n]; [inversion Hn|].
  destruct q as [|p2 q'].
  - cbn [xps_toks] in Hn |- *. rewrite <- app_assoc in Hn |- *. destruct va; cbn [app] in Hn |- *.
    + destruct n as [|n]; [rewrite app_length in Hn; cbn [length] in Hn; lia|].
      apply (ev_with (param_x_rt p true (ktok T_ELLIPSIS :: ktok RP :: rest) Hp)), ev_always. intros f E.
      now rewrite (ploop_x_step p _ _ f acc E).
    + apply (ev_with (param_x_rt p false rest Hp)), ev_always. intros f E.
      now rewrite (ploop_x_step p _ _ f acc E).
  - change (xps_toks (p :: p2 :: q') va) with (xp_toks p ++ ktok COMMA :: xps_toks (p2 :: q') va) in Hn |- *.
    rewrite <- app_assoc in Hn |- *. cbn [app] in Hn |- *. rewrite app_length in Hn. cbn [length] in Hn.
    pose proof (IH (p :: acc) va rest n Hq ltac:(discriminate) ltac:(lia)) as H1.
    cbn [rev] in H1. rewrite <- app_assoc in H1.
    apply (ev_with (param_x_rt p true (xps_toks (p2 :: q') va ++ ktok RP :: rest) Hp)), (ev_with H1), ev_always. intros f E2 E1.
    now rewrite (ploop_x_step p _ _ f acc E1).
Qed.

Lemma void_conv_x_id ps : Forall xp_ok ps -> void_conv_x ps = ps.
Proof.
  intros H. destruct ps as [|p q]; [reflexivity|]. destruct q; [|reflexivity].
  inversion H as [|? ? H1 _]; subst. destruct H1 as (_ & [_ Hv] & _). cbn [void_conv_x].
  destruct (xp_ty p) as [[|?] ? ?| | | | |]; try reflexivity. contradiction.
Qed.

(* `( T1 a = v1, T2 b, ... )` *)
Theorem parameters_with_defaults_roundtrip ps va rest :
  Forall xp_ok ps ->
  ev (fun f => params_x f (xps_toks ps va ++ ktok RP :: rest)) (DOk (ps, va, rest)).
Proof.
  intros Hok.
  destruct ps as [|p q].
  - apply ev_always. intros f. destruct va; reflexivity.
  - apply (ev_with (ploop_x_rt (p :: q) [] va rest _ Hok ltac:(discriminate) (le_n _))), ev_always. intros f E.
    unfold params_x. rewrite E. cbn [rev app]. rewrite (void_conv_x_id _ Hok).
    assert (Eh : exists Y, xps_toks (p :: q) va = xp_toks p ++ Y).
    { destruct q as [|p2 q']; eexists; reflexivity. }
    destruct Eh as [Y ->]. rewrite <- app_assoc.
    destruct (xp_head p (Y ++ ktok RP :: rest)) as (t0 & r0 & -> & _ & ->). reflexivity.
Qed.

Example ex_params_x :
  params_x 30 (xps_toks [mkXP (TPtr (TBase 5 true false) false false) (Some 1) false (Some [mkTk T_NAME 9; ktok LP; ktok RP]);
                         mkXP (TArr (TBase 6 false false) [mkTk 3 2]) (Some 2) false None] true ++ [ktok RP; ktok SEMI])
  = DOk ([mkXP (TPtr (TBase 5 true false) false false) (Some 1) false (Some [mkTk T_NAME 9; ktok LP; ktok RP]);
          mkXP (TArr (TBase 6 false false) [mkTk 3 2]) (Some 2) false None], true, [ktok SEMI]).
Proof. vm_compute. reflexivity. Qed.
