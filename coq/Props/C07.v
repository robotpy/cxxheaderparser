(* C07 -- Parsing time is polynomially bounded in input size.
   What is proved is about COST MODELS (iteration and step counts of the
   executable models); CPU time of the implementation is observed by the
   search, not proved. *)
From Coq Require Import NArith List.
Import ListNotations.
From CXV Require Import Gen.LexRules Lex.PlyLoop Lex.LexThms Parse.BalancedCost Base.Cost.
Open Scope N_scope.

(* the token loop yields one piece per iteration and no more pieces than the
   input has characters *)
Theorem lexer_iterations_linear :
  forall fuel st s ps o, lex_loop fuel st s = (ps, o) -> (length ps <= length s)%nat.
Proof. exact LexThms.lex_pieces_linear. Qed.

(* balanced-token consumption (attribute arguments, initialisers, template
   arguments, pragma groups): token reads plus match-stack entries visited are
   bounded by a quadratic in the input; deep or unbalanced nesting cannot blow up *)
Theorem balanced_cost_polynomial_partial :
  forall (T : Type) (ty : T -> N) (toks : list T) (stack : list N),
    (consume_cost T ty stack toks <= length toks * (1 + length stack + length toks))%nat.
Proof. exact BalancedCost.consume_cost_bound. Qed.

(* body / initialiser skipping reads each token once *)
Theorem discard_cost_linear :
  forall (T : Type) (ty : T -> N) (s e : N) (toks : list T) (level : nat),
    (discard_cost T ty s e level toks <= length toks)%nat.
Proof. exact BalancedCost.discard_cost_linear. Qed.

Print Assumptions lexer_iterations_linear.
Print Assumptions balanced_cost_polynomial_partial.
Print Assumptions discard_cost_linear.

(* non-vacuity: an unterminated comment, `/*` and 60 newlines, costs fewer than 5000
   steps in the step-counting model of the regenerated rules, not 2^60 *)
Example c07_nonvacuous :
  (lex_cost 1000000 (map fst rules) 62 (47 :: 42 :: repeat 10 60) 0 <? 5000) = true.
Proof. vm_compute. reflexivity. Qed.
