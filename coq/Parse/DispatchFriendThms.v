(* _parse_friend_decl as translated (regenerated, Gen/Dispatch.v), run by the interpreter of
   Parse/DispatchLang.v on symbolic remainders: a parse error outside a class; inside one the
   declaration parser starts at the token behind the keyword, flagged is_friend, with the
   pending template header. *)
From Coq Require Import NArith List.
Import ListNotations.
From CXV Require Import Parse.DispatchLang Gen.Dispatch.
Open Scope N_scope.

Theorem friend_outside_class_rejected kw R : run prog_parse_friend_decl false kw R = OErr 1.
Proof. reflexivity. Qed.

Theorem friend_in_class_dispatch kw x R :
  run prog_parse_friend_decl true kw (x :: R) = OCall F_declarations [RTok (Some x); RDox; RTemplate] [(2, RBool true)] R.
Proof. reflexivity. Qed.

