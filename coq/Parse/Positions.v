(* Finite check over the regenerated value-position table (C14):
   the delimiters documented as omitted (outer parentheses of throw /
   noexcept / decltype, array brackets) are sliced off with [1:-1], and no
   other position slices anything. *)
From Coq Require Import NArith List Bool.
Import ListNotations.
From CXV Require Import Gen.ParserTables.
Open Scope N_scope.

Definition K_UNTIL := 0. Definition K_INNER := 1. Definition K_WHOLE := 2. Definition K_LOOP := 3.

Definition position_ok (row : list N * N * N * list N) : bool :=
  match row with
  | (_, tclass, kind, terms) =>
      match tclass with
      | 0 => negb (kind =? K_INNER)
      | _ => kind =? K_INNER
      end
  end.

Definition count_class (c : N) : nat :=
  length (filter (fun row => match row with (_, tc, _, _) => tc =? c end) value_positions).

(* the counts keep the policy from holding of no row: translate/gen_parsertables.py classes a row by its label, and the
   sites whose delimiters are documented as omitted must all be found -- throw and noexcept in _parse_fn_end and in
   _parse_method_end (classes 1, 2), decltype in _parse_pqname_decltype_specifier (3), the array size in _parse_array_type (4) *)
Definition positions_ok : bool :=
  forallb position_ok value_positions
  && (2 <=? N.of_nat (count_class 1)) && (2 <=? N.of_nat (count_class 2))
  && (1 <=? N.of_nat (count_class 3)) && (1 <=? N.of_nat (count_class 4)).

Lemma positions_ok_true : positions_ok = true.
Proof. vm_compute. reflexivity. Qed.

Lemma positions_policy_lemma :
  forall label tclass kind terms, In (label, tclass, kind, terms) value_positions ->
    (tclass <> 0 -> kind = K_INNER) /\ (tclass = 0 -> kind <> K_INNER).
Proof.
  intros label tclass kind terms Hin.
  pose proof positions_ok_true as H. unfold positions_ok in H.
  do 4 (apply andb_prop in H as [H _]).
  rewrite forallb_forall in H. specialize (H _ Hin). cbn [position_ok] in H.
  split.
  - intros Hne. destruct tclass; [congruence|]. now apply N.eqb_eq in H.
  - intros ->. apply negb_true_iff in H. now apply N.eqb_neq in H.
Qed.
