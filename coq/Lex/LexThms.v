(* The lexer loop over the REGENERATED rule set.  One characterisation of an iteration (lex_step_param: its text,
   its newlines, the rule it comes from, and that the state is only written, never read) gives lex_loop_chain: a run
   is a chain of such pieces in front of the text left over.  Partition, line numbers and stamping (C08, C10),
   totality and the place of an error (C06) and the iteration bound (C07) are read off the chain, what one character
   is rejected as (C06) off the characterisation; shift invariance and resumption (lex_shift, lex_resume) are
   inductions of their own over the loop, on the same characterisation. *)
From Coq Require Import ZArith List Bool Lia.
Import ListNotations.
From CXV Require Import Gen.TokTy Base.Regex Base.RegexThms Gen.LexRules Lex.PlyLoop Lex.PlyLoopFacts.
Open Scope N_scope.

Definition rule_nl_ok (ra : rx * action) : bool :=
  let '(r, a) := ra in
  match a with
  | ACountNl _ | AErr _ => true
  | ALen _ => only_char r 10
  | ARet _ | AKeyword _ | APP => negb (mayc r 10)
  end.

Lemma rules_nonnull : forallb (fun ra => negb (nullable (fst ra))) rules = true.
Proof. vm_compute. reflexivity. Qed.

Lemma rules_nl_ok : forallb rule_nl_ok rules = true.
Proof. vm_compute. reflexivity. Qed.

(* the side condition under which Regex.rmatch's bound on star iterations loses nothing; no theorem
   uses it: it stops the build when a regenerated rule gets a starred body that matches the empty text *)
Lemma rules_stars_ok : forallb (fun ra => stars_ok (fst ra)) rules = true.
Proof. vm_compute. reflexivity. Qed.

Lemma ignored_not_nl : in_ranges 10 (map (fun x => (x, x)) lexignore) = false.
Proof. reflexivity. Qed.

Lemma literal_not_nl : assoc_chr 10 literal_chars = None.
Proof. reflexivity. Qed.

Definition action_nl (a : action) (w : list N) : Prop :=
  match a with
  | ACountNl _ | AErr _ => True
  | ALen _ => N.of_nat (length w) = count_nl w
  | ARet _ | AKeyword _ | APP => count_nl w = 0
  end.

Lemma rule_nl_sound r a w :
  rule_nl_ok (r, a) = true -> Forall (fun c => mayc r c = true) w -> action_nl a w.
Proof.
  intros Hok Fw. destruct a; cbn [rule_nl_ok action_nl] in *; trivial;
    try (apply negb_true_iff in Hok; exact (count_nl_none _ w Hok Fw)).
  symmetry. apply count_nl_all. eapply Forall_impl; [|exact Fw]. exact (only_char_mayc r 10 Hok).
Qed.

(* the only place where the regex theory (match_prefix_sound; only_char_mayc through rule_nl_sound) and the
   checks rules_nonnull / rules_nl_ok are used *)
Lemma rule_match c s' a rest : first_match rules (c :: s') = Some (a, rest) ->
  exists r w, In (r, a) rules /\ firstc r c = true /\ match_prefix r (c :: s') = Some rest /\
    c :: s' = w ++ rest /\ w <> [] /\ action_nl a w.
Proof.
  intros H. apply first_match_in in H as (r & Hin & Hm).
  pose proof (proj1 (forallb_forall _ _) rules_nonnull _ Hin) as Hn.
  apply negb_true_iff in Hn. cbn [fst] in Hn.
  pose proof (proj1 (forallb_forall _ _) rules_nl_ok _ Hin) as Hnl.
  destruct (match_prefix_sound _ _ _ Hm) as (w & Hs & Fw & Hw).
  exists r, w. destruct w as [|c' w']; [congruence|].
  assert (c' = c) as -> by now inversion Hs.
  repeat split; eauto using rule_nl_sound. discriminate.
Qed.

Definition bump (st : lstate) (t : list N) : lstate :=
  mkL (lineno st + count_nl t) (line_off st) (fname st).

Definition rebase (st : lstate) (t : list N) : lstate :=
  match parse_line_directive t with
  | Some (n, f) => mkL (lineno st) (1 + Z.of_N (lineno st) - Z.of_N n)%Z f
  | None => st
  end.

Fixpoint locs_ok (st : lstate) (ps : list piece) : Prop :=
  match ps with
  | [] => True
  | PTok _ t _ loc :: r => loc = loc_of (bump st t) /\ locs_ok (bump st t) r
  | PIgn _ :: r => locs_ok st r
  | PDrop t :: r => locs_ok (rebase st t) r
  end.

Definition after_piece (st : lstate) (p : piece) : lstate :=
  match p with PTok _ t _ _ => bump st t | PIgn _ => st | PDrop t => rebase st t end.

Definition all_text (ps : list piece) : list N := concat (map piece_text ps).

Lemma all_text_cons p ps : all_text (p :: ps) = piece_text p ++ all_text ps.
Proof. reflexivity. Qed.

Lemma bump_0 st t : count_nl t = 0 -> bump st t = st.
Proof. intros H. unfold bump. rewrite H, N.add_0_r. now destruct st. Qed.

Definition stamp (st : lstate) (p : piece) : piece :=
  match p with PTok ty t _ _ => PTok ty t (lineno st) (loc_of (bump st t)) | _ => p end.

Definition piece_nl (p : piece) : Prop :=
  match p with PTok _ _ _ _ => True | _ => count_nl (piece_text p) = 0 end.

Definition tok_type (a : action) (w : list N) : option N :=
  match a with
  | ARet ty | ACountNl ty | ALen ty => Some ty
  | AKeyword ty => Some (match assoc_str w keywords with Some k => k | None => ty end)
  | AErr _ | APP => None
  end.

Definition source (c : N) (s' : list N) (p : piece) (rest : list N) : Prop :=
  match p with
  | PIgn _ => in_ranges c (map (fun x => (x, x)) lexignore) = true
  | PTok ty w _ _ =>
      (exists r a, In (r, a) rules /\ firstc r c = true /\ tok_type a w = Some ty)
      \/ assoc_chr c literal_chars = Some ty
  | PDrop w =>
      (exists r, In (r, APP) rules /\ match_prefix r (c :: s') = Some rest) /\
      (parse_line_directive w <> None \/ starts_with str_warning w = true)
  end.

(* One iteration never reads the state, it only writes it into the result: the
   step from any other state st2 yields the same piece, stamped by st2.  Text,
   state, stamping and shift invariance of a step all follow from this. *)
Lemma lex_step_param st c s' :
  match lex_step st c s' with
  | SPiece p _ rest =>
      c :: s' = piece_text p ++ rest /\ piece_text p <> [] /\ piece_nl p /\ source c s' p rest /\
      forall st2, lex_step st2 c s' = SPiece (stamp st2 p) (after_piece st2 p) rest
  | SFail k _ t =>
      (exists rest, c :: s' = t ++ rest) /\ forall st2, lex_step st2 c s' = SFail k (loc_of st2) t
  end.
Proof.
  assert (Hc : count_nl [c] = 0 \/ c = 10).
  { cbn. destruct (N.eqb_spec c 10); auto. }
  (* the destructs below also rewrite under [forall st2], where lex_step is unfolded as well *)
  unfold lex_step.
  destruct (in_ranges c (map (fun x => (x, x)) lexignore)) eqn:Eign.
  { destruct Hc as [Hc| ->]; [|now rewrite ignored_not_nl in Eign].
    repeat split; auto. discriminate. }
  destruct (first_match rules (c :: s')) as [[a rest]|] eqn:Efm.
  - apply rule_match in Efm as (r & w & Hin & Hf & Hm & -> & Nw & Hnl). rewrite firstn_len_app.
    assert (Src : forall ty line loc, tok_type a w = Some ty -> source c s' (PTok ty w line loc) rest)
      by (left; eauto).
    destruct a as [ty|ty|ty|ty|k|]; cbn [action_nl] in Hnl.
    + repeat split; auto. intros st2. cbn [stamp after_piece]. now rewrite (bump_0 st2 w Hnl).
    + repeat split; auto.
    + repeat split; auto. intros st2. cbn [stamp after_piece]. unfold bump. now rewrite Hnl.
    + repeat split; auto. intros st2. cbn [stamp after_piece]. now rewrite (bump_0 st2 w Hnl).
    + split; [now exists rest|reflexivity].
    + assert (Hd : forall st2, after_piece st2 (PDrop w) = rebase st2 w) by reflexivity.
      unfold rebase in Hd.
      destruct (parse_line_directive w) as [[n f]|] eqn:Ep.
      { repeat split; eauto; [left; congruence|]. intros st2. now rewrite Hd. }
      destruct (starts_with str_warning w) eqn:Ew.
      { repeat split; eauto. intros st2. now rewrite Hd. }
      destruct (contains str_define w); (split; [now exists rest|reflexivity]).
  - destruct (assoc_chr c literal_chars) as [ty|] eqn:Elit.
    + destruct Hc as [Hc| ->]; [|now rewrite literal_not_nl in Elit].
      repeat split; try discriminate; [now right|]. intros st2. cbn [stamp after_piece].
      now rewrite (bump_0 st2 [c] Hc).
    + split; [exists []; now rewrite app_nil_r|reflexivity].
Qed.

Definition piece_from (st : lstate) (p : piece) : Prop :=
  piece_text p <> [] /\ piece_nl p /\ stamp st p = p.

Lemma lex_step_piece st c s' p st' rest : lex_step st c s' = SPiece p st' rest ->
  c :: s' = piece_text p ++ rest /\ piece_from st p /\ st' = after_piece st p /\ source c s' p rest /\
  forall st2, lex_step st2 c s' = SPiece (stamp st2 p) (after_piece st2 p) rest.
Proof.
  intros H. pose proof (lex_step_param st c s') as P. rewrite H in P.
  destruct P as (Hs & Hne & Hnl & Hsrc & P).
  pose proof (P st) as E. rewrite H in E. injection E as Hp Hst.
  repeat split; auto.
Qed.

Lemma lex_step_fail st c s' k loc t : lex_step st c s' = SFail k loc t ->
  loc = loc_of st /\ (exists rest, c :: s' = t ++ rest) /\
  forall st2, lex_step st2 c s' = SFail k (loc_of st2) t.
Proof.
  intros H. pose proof (lex_step_param st c s') as P. rewrite H in P.
  destruct P as (Hs & P).
  pose proof (P st) as E. rewrite H in E. injection E as Hl.
  auto.
Qed.

Lemma piece_from_length st p : piece_from st p -> (0 < length (piece_text p))%nat.
Proof. intros (Hne & _). destruct (piece_text p); [congruence|cbn; lia]. Qed.

Fixpoint chain (st : lstate) (ps : list piece) : Prop :=
  match ps with [] => True | p :: r => piece_from st p /\ chain (after_piece st p) r end.

Theorem lex_loop_chain : forall fuel st s ps o,
  lex_loop fuel st s = (ps, o) ->
  chain st ps /\ exists tail, s = all_text ps ++ tail /\
  match o with
  | Done => tail = []
  | Failed k loc t => loc = loc_of (fold_left after_piece ps st) /\ exists rest, tail = t ++ rest
  | OutOfFuel => (fuel < length s)%nat
  end.
Proof.
  induction fuel as [|f IH]; intros st [|c s'] ps o H; cbn [lex_loop] in H;
    try (inversion H; subst; split; [exact I|eexists; split; [reflexivity|cbn; auto; lia]]; fail).
  (* the empty text (Done, both fuels) and c :: s' without fuel (OutOfFuel) are closed; S f on c :: s' is left *)
  destruct (lex_step st c s') as [p st' rest|k loc t] eqn:Es.
  - destruct (lex_loop f st' rest) as [ps' o'] eqn:El. inversion H; subst. clear H.
    apply lex_step_piece in Es as (-> & Hp & -> & _).
    apply IH in El as (Hch & tail & -> & Ho). split; [now split|].
    exists tail. rewrite all_text_cons. cbn [fold_left]. split; [now rewrite app_assoc|].
    destruct o; auto.
    apply piece_from_length in Hp. rewrite app_length. lia.
  - inversion H; subst. apply lex_step_fail in Es as (-> & Hr & _).
    split; [exact I|]. exists (c :: s'). now repeat split.
Qed.

Lemma lex_step_shorter st c s' p st' rest :
  lex_step st c s' = SPiece p st' rest -> (length rest <= length s')%nat.
Proof.
  intros Es. apply lex_step_piece in Es as (Hs & Hp & _). apply piece_from_length in Hp.
  apply (f_equal (@length N)) in Hs. rewrite app_length in Hs. cbn [length] in Hs. lia.
Qed.

Lemma lex_loop_fuel : forall f g st s, (length s <= f)%nat -> (length s <= g)%nat ->
  lex_loop f st s = lex_loop g st s.
Proof.
  induction f as [|f IH]; intros g st [|c s'] Hf Hg; try (destruct g; reflexivity); [cbn in Hf; lia|].
  destruct g as [|g]; [cbn in Hg; lia|]. cbn [lex_loop length] in *.
  destruct (lex_step st c s') as [p st' rest|] eqn:Es; [|reflexivity].
  apply lex_step_shorter in Es. rewrite (IH g); [reflexivity|lia|lia].
Qed.

Lemma after_piece_lineno st p :
  piece_nl p -> lineno (after_piece st p) = lineno st + count_nl (piece_text p).
Proof.
  destruct p as [ty t line loc|c|t]; cbn [after_piece piece_nl]; [reflexivity| |]; intros ->.
  - lia.
  - unfold rebase. destruct (parse_line_directive t) as [[n f]|]; cbn [lineno]; lia.
Qed.

Lemma chain_app : forall pre st q, chain st (pre ++ q) ->
  chain st pre /\ chain (fold_left after_piece pre st) q.
Proof.
  induction pre as [|p pre IH]; intros st q H; [now split|]. destruct H as [Hp H].
  destruct (IH _ _ H). cbn [chain fold_left]. auto.
Qed.

Lemma chain_lineno : forall ps st, chain st ps ->
  lineno (fold_left after_piece ps st) = lineno st + count_nl (all_text ps).
Proof.
  induction ps as [|p ps IH]; intros st; cbn [chain fold_left]; [cbn; lia|].
  intros [(_ & Hnl & _) H].
  rewrite all_text_cons, (IH _ H), count_nl_app, after_piece_lineno by exact Hnl. lia.
Qed.

Lemma chain_length : forall ps st, chain st ps -> (length ps <= length (all_text ps))%nat.
Proof.
  induction ps as [|p ps IH]; intros st; [cbn; lia|]. intros [Hp H].
  apply IH in H. apply piece_from_length in Hp.
  rewrite all_text_cons, app_length. cbn [length]. lia.
Qed.

(* no input gets the loop stuck: with fuel = length of the input the result
   is Done or a located error, never OutOfFuel *)
Theorem lex_total file s : snd (lex file s) <> OutOfFuel.
Proof.
  unfold lex. destruct (lex_loop (length s) (init_state file) s) as [ps o] eqn:E.
  apply lex_loop_chain in E as (_ & tail & _ & E). cbn [snd]. destruct o; try discriminate. lia.
Qed.

(* nothing lost: the pieces (tokens, ignored characters, dropped directives)
   in order reproduce the input *)
Theorem lex_partition file s ps :
  lex file s = (ps, Done) -> all_text ps = s.
Proof.
  intros H. apply lex_loop_chain in H as (_ & tail & -> & ->). symmetry. apply app_nil_r.
Qed.

Theorem lex_partition_err file s ps k loc t :
  lex file s = (ps, Failed k loc t) -> exists rest, s = all_text ps ++ t ++ rest.
Proof.
  intros H. apply lex_loop_chain in H as (_ & tail & -> & _ & rest & ->). now exists rest.
Qed.

Theorem lex_loop_lineno fuel st s pre ty t line loc post o :
  lex_loop fuel st s = (pre ++ PTok ty t line loc :: post, o) ->
  line = lineno st + count_nl (all_text pre).
Proof.
  intros H. apply lex_loop_chain in H as [H _].
  apply chain_app in H as [Hpre [(_ & _ & E) _]].
  apply chain_lineno in Hpre. inversion E. exact Hpre.
Qed.

Theorem lex_lineno file s ps o pre ty t line loc post :
  lex file s = (ps, o) -> ps = pre ++ PTok ty t line loc :: post ->
  line = 1 + count_nl (all_text pre).
Proof. intros H ->. exact (lex_loop_lineno _ _ _ _ _ _ _ _ _ _ H). Qed.

Lemma dropped_are_directives st c s' t st' rest :
  lex_step st c s' = SPiece (PDrop t) st' rest ->
  exists r, In (r, APP) rules /\ match_prefix r (c :: s') = Some rest.
Proof.
  intros H. apply lex_step_piece in H as (_ & _ & _ & S & _). exact (proj1 S).
Qed.

Definition name_only_from_keyword_rule : bool :=
  forallb (fun ra => match snd ra with
                     | ARet ty | ACountNl ty | ALen ty => negb (ty =? T_NAME)
                     | _ => true end) rules
  && negb (existsb (N.eqb T_NAME) (map snd keywords))
  && negb (existsb (N.eqb T_NAME) (map snd literal_chars)).

Lemma name_only_true : name_only_from_keyword_rule = true.
Proof. vm_compute. reflexivity. Qed.

Lemma not_existsb_eqb x l : negb (existsb (N.eqb x) l) = true -> ~ In x l.
Proof.
  intros H Hin. apply negb_true_iff, not_true_iff_false in H. apply H, existsb_exists.
  exists x. split; [exact Hin|apply N.eqb_refl].
Qed.

(* keywords are never plain names: a token of type NAME never carries a keyword's text *)
Theorem keywords_never_names st c s' t line loc st' rest :
  lex_step st c s' = SPiece (PTok T_NAME t line loc) st' rest ->
  assoc_str t keywords = None.
Proof.
  pose proof name_only_true as Hok. unfold name_only_from_keyword_rule in Hok.
  apply andb_prop in Hok as [Hok Hlit]. apply andb_prop in Hok as [Hrules Hkw].
  apply not_existsb_eqb in Hkw, Hlit.
  intros H. apply lex_step_piece in H as (_ & _ & _ & S & _).
  destruct S as [(r & a & Hin & _ & Ht)|Hl]; [|now apply assoc_chr_in in Hl].
  apply (proj1 (forallb_forall _ _) Hrules) in Hin. cbn [snd] in Hin.
  destruct a as [ty|ty|ty|ty|k|]; cbn [tok_type] in Ht; try discriminate;
    try (injection Ht as ->; now rewrite N.eqb_refl in Hin).
  destruct (assoc_str t keywords) as [kty|] eqn:Ek; [|reflexivity].
  injection Ht as ->. now apply assoc_str_in in Ek.
Qed.

Theorem lex_locs : forall fuel st s ps o, lex_loop fuel st s = (ps, o) -> locs_ok st ps.
Proof.
  intros fuel st s ps o H. apply lex_loop_chain in H as [H _]. revert st H.
  induction ps as [|p ps IH]; intros st; [trivial|]. intros [(_ & _ & E) H]. apply IH in H.
  destruct p; cbn [locs_ok after_piece] in *; [|exact H..].
  split; [now inversion E|exact H].
Qed.

(* an error is located at the line counter of the offending match's first
   character, re-based by the directive in force *)
Theorem lex_error_location : forall fuel st s ps k loc t,
  lex_loop fuel st s = (ps, Failed k loc t) ->
  loc = loc_of (fold_left after_piece ps st).
Proof.
  intros fuel st s ps k loc t H. now apply lex_loop_chain in H as (_ & tail & _ & -> & _).
Qed.

Definition shift_state (k : N) (st : lstate) : lstate := mkL (lineno st + k) (line_off st) (fname st).
Definition shift_loc (k : N) (l : list N * Z) : list N * Z := (fst l, (snd l + Z.of_N k)%Z).

Fixpoint no_rebase (ps : list piece) : Prop :=
  match ps with
  | [] => True
  | PDrop t :: r => parse_line_directive t = None /\ no_rebase r
  | _ :: r => no_rebase r
  end.

Definition shift_piece (k : N) (p : piece) : piece :=
  match p with
  | PTok ty t line loc => PTok ty t (line + k) (shift_loc k loc)
  | _ => p
  end.

Lemma loc_of_shift k st : loc_of (shift_state k st) = shift_loc k (loc_of st).
Proof. unfold loc_of, shift_loc, shift_state. cbn [fname lineno line_off fst snd]. f_equal. lia. Qed.

Lemma after_piece_shift k st p : no_rebase [p] ->
  after_piece (shift_state k st) p = shift_state k (after_piece st p).
Proof.
  destruct p as [ty t line loc|c|t]; cbn [after_piece no_rebase]; [|reflexivity|].
  - intros _. unfold bump, shift_state. cbn [lineno line_off fname]. f_equal. lia.
  - intros [Hp _]. unfold rebase. now rewrite Hp.
Qed.

Lemma stamp_shift k st p : stamp (shift_state k st) p = shift_piece k (stamp st p).
Proof.
  destruct p as [ty t line loc|c|t]; [|reflexivity..]. cbn [stamp shift_piece].
  rewrite <- loc_of_shift. do 2 f_equal. exact (after_piece_shift k st (PTok ty t line loc) I).
Qed.

Theorem lex_shift k : forall fuel st s ps o,
  lex_loop fuel st s = (ps, o) -> no_rebase ps ->
  lex_loop fuel (shift_state k st) s =
    (map (shift_piece k) ps,
     match o with Failed kind loc t => Failed kind (shift_loc k loc) t | _ => o end).
Proof.
  induction fuel as [|f IH]; intros st [|c s'] ps o H Hn; cbn [lex_loop] in *;
    try (inversion H; subst; reflexivity).
  destruct (lex_step st c s') as [p st' rest|kind loc t] eqn:Es.
  - destruct (lex_loop f st' rest) as [ps' o'] eqn:El. inversion H; subst. clear H.
    apply lex_step_piece in Es as (_ & (_ & _ & Hp) & -> & _ & Es).
    assert (no_rebase [p] /\ no_rebase ps') as [Hn1 Hn2] by (destruct p; cbn [no_rebase] in *; tauto).
    rewrite Es, stamp_shift, Hp, after_piece_shift, (IH _ _ _ _ El Hn2) by exact Hn1. reflexivity.
  - inversion H; subst. apply lex_step_fail in Es as (-> & _ & Es). now rewrite Es, loc_of_shift.
Qed.

Lemma lex_resume : forall pre fuel st s ps o,
  lex_loop fuel st s = (pre ++ ps, o) ->
  exists fuel' s', s = all_text pre ++ s' /\
    lex_loop fuel' (fold_left after_piece pre st) s' = (ps, o).
Proof.
  induction pre as [|p pre IH]; intros fuel st s ps o H.
  - exists fuel, s. split; [reflexivity|exact H].
  - destruct fuel as [|f]; destruct s as [|c s']; cbn [lex_loop app] in H; try (inversion H; fail).
    destruct (lex_step st c s') as [p' st' rest|kind loc t] eqn:Es; [|inversion H].
    destruct (lex_loop f st' rest) as [ps' o'] eqn:El. inversion H; subst. clear H.
    apply lex_step_piece in Es as (-> & _ & -> & _).
    destruct (IH _ _ _ _ _ El) as (fuel' & s2 & -> & Hrun).
    exists fuel', s2. split; [|exact Hrun].
    rewrite all_text_cons. now rewrite app_assoc.
Qed.

(* a character that can start no rule, is no literal and is not ignored is
   rejected as "Illegal character" at the current location, whatever follows *)
Theorem illegal_char_rejected st c s' :
  forallb (fun ra => negb (firstc (fst ra) c)) rules = true ->
  assoc_chr c literal_chars = None ->
  in_ranges c (map (fun x => (x, x)) lexignore) = false ->
  lex_step st c s' = SFail 0 (loc_of st) (c :: s').
Proof.
  intros Hf Hl Hi. unfold lex_step. rewrite Hi, Hl.
  destruct (first_match rules (c :: s')) as [[a rest]|] eqn:Efm; [|reflexivity].
  apply rule_match in Efm as (r & w & Hin & Hc & _).
  apply (proj1 (forallb_forall _ _) Hf) in Hin. cbn [fst] in Hin. now rewrite Hc in Hin.
Qed.

(* '#': only the pragma, include and generic directive rules can start with it, so a
   '#' is a pragma/include token, a dropped #line/#warning, or an error *)
Definition hash_rules_ok : bool :=
  forallb (fun ra => negb (firstc (fst ra) 35) ||
                     match snd ra with
                     | ARet ty => (ty =? T_PRAGMA_DIRECTIVE) || (ty =? T_INCLUDE_DIRECTIVE)
                     | APP => true
                     | _ => false end) rules.

Lemma hash_rules_ok_true : hash_rules_ok = true.
Proof. vm_compute. reflexivity. Qed.

Theorem hash_is_directive_or_error st s' :
  match lex_step st 35 s' with
  | SPiece (PTok ty _ _ _) _ _ => ty = T_PRAGMA_DIRECTIVE \/ ty = T_INCLUDE_DIRECTIVE
  | SPiece (PDrop t) _ _ => parse_line_directive t <> None \/ starts_with str_warning t = true
  | SPiece (PIgn _) _ _ => False
  | SFail k _ _ => True
  end.
Proof.
  destruct (lex_step st 35 s') as [p st' rest|] eqn:E; [|exact I].
  apply lex_step_piece in E as (_ & _ & _ & S & _).
  destruct p as [ty w line loc|ci|w]; [|discriminate|exact (proj2 S)].
  destruct S as [(r & a & Hin & Hc & Ht)|Hl]; [|discriminate].
  apply (proj1 (forallb_forall _ _) hash_rules_ok_true) in Hin. cbn [fst snd] in Hin.
  rewrite Hc in Hin. cbn [negb orb] in Hin.
  destruct a; try discriminate. injection Ht as ->.
  apply orb_prop in Hin as [Hin|Hin]; apply N.eqb_eq in Hin; auto.
Qed.

Lemma no_rebase_fold : forall ps st, no_rebase ps ->
  line_off (fold_left after_piece ps st) = line_off st /\ fname (fold_left after_piece ps st) = fname st.
Proof.
  induction ps as [|p r IH]; intros st Hn; [split; reflexivity|].
  cbn [fold_left]. destruct p as [ty t line loc|c|t]; cbn [no_rebase after_piece] in *.
  - exact (IH (bump st t) Hn).
  - exact (IH st Hn).
  - destruct Hn as [Hp Hn]. unfold rebase. rewrite Hp. exact (IH st Hn).
Qed.

Theorem lex_loop_error_line fuel st s ps k loc t :
  lex_loop fuel st s = (ps, Failed k loc t) -> no_rebase ps ->
  fst loc = fname st /\ exists rest, s = (all_text ps ++ rest)%list /\
    snd loc = (Z.of_N (lineno st + count_nl (all_text ps)) - line_off st)%Z.
Proof.
  intros H Hn. apply lex_loop_chain in H as (Hch & tail & -> & -> & _).
  apply chain_lineno in Hch. destruct (no_rebase_fold ps st Hn) as [Ho Hf].
  unfold loc_of. cbn [fst snd]. rewrite Hf, Ho, Hch.
  split; [reflexivity|]. exists tail. split; reflexivity.
Qed.

Theorem lex_error_line_exists file s ps k loc t :
  lex file s = (ps, Failed k loc t) -> no_rebase ps ->
  fst loc = file /\ exists rest, s = (all_text ps ++ rest)%list /\
    snd loc = Z.of_N (1 + count_nl (all_text ps)).
Proof.
  intros H Hn. destruct (lex_loop_error_line _ _ _ _ _ _ _ H Hn) as (Hf & rest & Hs & Hl).
  split; [exact Hf|]. exists rest. split; [exact Hs|]. rewrite Hl. apply Z.sub_0_r.
Qed.

(* C07: the token loop makes at most one iteration per input character *)
Theorem lex_pieces_linear : forall fuel st s ps o,
  lex_loop fuel st s = (ps, o) -> (length ps <= length s)%nat.
Proof.
  intros fuel st s ps o H. apply lex_loop_chain in H as (Hch & tail & -> & _).
  apply chain_length in Hch. rewrite app_length. lia.
Qed.
