(* Hand-written mirror of CxxParser._parse_fn_end: what may follow the ')' of
   a function's parameter list -- throw(...) or noexcept[(...)], then a body
   `{ ... }` (skipped by _discard_contents) or `= delete`.  Trailing return
   types ('->') and requires-clauses are outside this model (code 4).
   With fn_decl (Parse/Declarator.v) this gives whole function statements.
   Tied to the code by the differential run of harness/props/c01.py. *)
From Coq Require Import NArith List.
Import ListNotations.
From CXV Require Import Gen.TokTy Parse.Balanced Parse.BalancedThms Parse.Declarator Parse.DeclSpec Parse.DeclThms Parse.EnumList.
Open Scope N_scope.

Record tail := mkTail { t_throw : option (list tk); t_noexcept : option (list tk); t_body : bool; t_deleted : bool }.

Definition tail_end (th ne : option (list tk)) (r : list tk) : dres (tail * list tk) :=
  match r with
  | t :: r1 =>
      if is T_ARROW t then DErr 4
      else if is T_requires t then DErr 4          (* a requires-clause may follow the exception specification *)
      else if is LBRACE t then
        match discard kty LBRACE RBRACE 1 r1 with
        | Ok r2 => DOk (mkTail th ne true false, r2)
        | ErrEOF => DErr 2
        | ErrUnexpected _ => DErr 1
        | ErrInternal => DErr 3
        end
      else if is EQ t then
        match r1 with
        | d :: r2 => if is T_delete d then DOk (mkTail th ne false true, r2) else DErr 1
        | [] => DErr 2
        end
      else DOk (mkTail th ne false false, r)
  | [] => DOk (mkTail th ne false false, r)
  end.

Definition fn_tail (toks : list tk) : dres (tail * list tk) :=
  match toks with
  | t :: r =>
      if is T_throw t then
        match r with
        | lp :: r1 =>
            if is LP lp then lift (consume kty [RP] [lp] r1) (fun grp r2 => tail_end (Some (middle grp)) None r2)
            else DErr 1
        | [] => DErr 2
        end
      else if is T_noexcept t then
        match r with
        | lp :: r1 =>
            if is LP lp then lift (consume kty [RP] [lp] r1) (fun grp r2 => tail_end None (Some (middle grp)) r2)
            else tail_end None (Some []) r
        | [] => tail_end None (Some []) r
        end
      else if is T_requires t then DErr 4
      else tail_end None None toks
  | [] => tail_end None None toks
  end.

Definition fn_stmt (fuel : nat) (toks : list tk)
  : dres (N * ty * list (ty * option N) * bool * tail * list tk) :=
  match fn_decl fuel toks with
  | DErr e => DErr e
  | DOk (nm, rt, ps, va, r) =>
      match fn_tail r with
      | DErr e => DErr e
      | DOk (tl, r1) =>
          if t_body tl then DOk (nm, rt, ps, va, tl, r1)
          else
            match r1 with
            | s :: r2 => if is SEMI s then DOk (nm, rt, ps, va, tl, r2) else DErr 1
            | [] => DErr 2
            end
      end
  end.

Inductive ending := EndDecl | EndBody (soup : list tk) | EndDelete.

Definition spec_toks (th ne : option (list tk)) (ne_paren : bool) : list tk :=
  match th, ne with
  | Some e, _ => ktok T_throw :: ktok LP :: e ++ [ktok RP]
  | None, Some e => ktok T_noexcept :: (if ne_paren then ktok LP :: e ++ [ktok RP] else [])
  | None, None => []
  end.

Definition ending_toks (en : ending) : list tk :=
  match en with
  | EndDecl => []
  | EndBody soup => ktok LBRACE :: soup ++ [ktok RBRACE]
  | EndDelete => [ktok EQ; ktok T_delete]
  end.

Definition tail_of (th ne : option (list tk)) (en : ending) : tail :=
  mkTail th (match th with Some _ => None | None => ne end)
         (match en with EndBody _ => true | _ => false end) (match en with EndDelete => true | _ => false end).

Definition decl_follow (rest : list tk) : bool :=
  match rest with
  | t :: _ => negb (is T_ARROW t || is LBRACE t || is EQ t || is LP t || is T_throw t || is T_noexcept t || is T_requires t)
  | [] => true
  end.

Lemma decl_follow_set : forall s, decl_follow s = hd_out [T_ARROW; LBRACE; EQ; LP; T_throw; T_noexcept; T_requires] s.
Proof. as_set. Qed.

Definition tail_ok (th ne : option (list tk)) (ne_paren : bool) (en : ending) (rest : list tk) : Prop :=
  (match th with Some e => SNk e | None => True end) /\
  (match ne with Some e => SNk e /\ (ne_paren = false -> e = []) | None => True end) /\
  (match en with
   | EndBody soup => bal tk kty LBRACE RBRACE soup
   | EndDecl => decl_follow rest = true
   | EndDelete => True
   end).

Definition ending_ok (en : ending) (rest : list tk) : Prop :=
  match en with
  | EndBody soup => bal tk kty LBRACE RBRACE soup
  | EndDecl => decl_follow rest = true
  | EndDelete => True
  end.

Lemma tail_end_rt th ne en rest :
  ending_ok en rest ->
  tail_end th ne (ending_toks en ++ rest) =
    DOk (mkTail th ne (match en with EndBody _ => true | _ => false end) (match en with EndDelete => true | _ => false end), rest).
Proof.
  destruct en as [|soup|]; cbn [ending_ok ending_toks app]; intros H.
  - destruct rest as [|t r]; [reflexivity|]. rewrite decl_follow_set in H.
    cbn [tail_end]. now rewrite !(hd_out_is _ _ _ _ H) by reflexivity.
  - cbn [tail_end]. isc. rewrite <- app_assoc. cbn [app]. now rewrite discard_group.
  - reflexivity.
Qed.

Lemma ending_head en rest : ending_ok en rest ->
  hd_out [LP; T_throw; T_noexcept; T_requires] (ending_toks en ++ rest) = true.
Proof.
  destruct en as [|soup|]; [|reflexivity|reflexivity].
  cbn [ending_ok ending_toks app]. rewrite decl_follow_set. now apply hd_out_sub.
Qed.

(* fn_tail reads a written exception specification and hands what follows it to tail_end *)
Lemma fn_tail_spec th ne ne_paren Y :
  (match th with Some e => SNk e | None => True end) ->
  (match ne with Some e => SNk e /\ (ne_paren = false -> e = []) | None => True end) ->
  hd_out [LP; T_throw; T_noexcept; T_requires] Y = true ->
  fn_tail (spec_toks th ne ne_paren ++ Y) = tail_end th (match th with Some _ => None | None => ne end) Y.
Proof.
  intros Hth Hne Hh. destruct th as [e|]; [|destruct ne as [e|]]; cbn [spec_toks app].
  - cbn [fn_tail]. isc. rewrite <- app_assoc. cbn [app].
    rewrite consume_group by (reflexivity || discriminate || assumption).
    cbn [lift]. now rewrite middle_group.
  - destruct Hne as [Hsn Hnp]. cbn [fn_tail]. isc. destruct ne_paren.
    + cbn [app]. isc. rewrite <- app_assoc. cbn [app].
      rewrite consume_group by (reflexivity || discriminate || assumption).
      cbn [lift]. now rewrite middle_group.
    + rewrite (Hnp eq_refl). destruct Y as [|t r]; [reflexivity|].
      cbn [app]. now rewrite (hd_out_is _ _ _ LP Hh eq_refl).
  - destruct Y as [|t r]; [reflexivity|]. cbn [fn_tail]. now rewrite !(hd_out_is _ _ _ _ Hh) by reflexivity.
Qed.

Theorem fn_tail_roundtrip th ne ne_paren en rest :
  tail_ok th ne ne_paren en rest ->
  fn_tail (spec_toks th ne ne_paren ++ ending_toks en ++ rest) = DOk (tail_of th ne en, rest).
Proof.
  intros (Hth & Hne & Hen). fold (ending_ok en rest) in Hen.
  rewrite fn_tail_spec by (assumption || now apply ending_head). now apply tail_end_rt.
Qed.

Definition after_tail (en : ending) (rest : list tk) : list tk :=
  match en with EndBody _ => rest | _ => ktok SEMI :: rest end.

Lemma tail_nolb th ne nep en rest :
  (en = EndDecl -> nolb rest = true) -> nolb (spec_toks th ne nep ++ ending_toks en ++ rest) = true.
Proof.
  intros H. destruct th as [e|]; [reflexivity|]. destruct ne as [e|]; [reflexivity|].
  destruct en; [now apply H|reflexivity|reflexivity].
Qed.

Theorem fn_stmt_roundtrip rt ps va n th ne nep en rest :
  wf (TFn rt ps va) -> tail_ok th ne nep en (after_tail en rest) ->
  ev (fun f => fn_stmt f (decl_toks (TFn rt ps va) (Some n) ++ spec_toks th ne nep ++ ending_toks en ++ after_tail en rest))
     (DOk (n, rt, ps, va, tail_of th ne en, rest)).
Proof.
  intros Hwf Hok. unfold fn_stmt.
  eapply ev_bind; [exact (fn_roundtrip rt ps va n _ Hwf (tail_nolb th ne nep en (after_tail en rest) ltac:(now intros ->)))|].
  cbn beta iota. rewrite (fn_tail_roundtrip th ne nep en (after_tail en rest) Hok).
  destruct en as [|soup|]; apply ev_const.
Qed.
