(* Hand-written mirror of CxxParser._parse_template_instantiation (entered
   behind `template` of an explicit instantiation, or behind `extern template`):
   `class` or `struct`, then the name -- an optional leading '::', NAME (:: NAME)*,
   and template arguments behind the LAST name (Parse/TemplateArg.v tspec; they
   are mandatory) -- and ';'.  An attribute in front of the name, template
   arguments on an inner segment and anything else _parse_pqname accepts are
   outside this model (code 4).
   Tied to the code by the differential run of harness/props/c01.py. *)
From Coq Require Import NArith List Bool Lia.
Import ListNotations.
From CXV Require Import Gen.TokTy Gen.ParserTables Parse.Balanced Parse.Declarator Parse.DeclSpec Parse.DeclThms Parse.TemplateArg.
Open Scope N_scope.

Definition LTi := T_LIT_60.

(* the segments NAME (:: NAME)* with template arguments behind the last; [n] bounds the number of segments *)
Fixpoint inst_names (n fuel : nat) (acc : list N) (toks : list tk) : dres (list N * list targ * list tk) :=
  match n with
  | O => DErr 9
  | S n' =>
      match toks with
      | t :: r =>
          if is T_NAME t then
            match r with
            | x :: r1 =>
                if is LTi x then
                  match tspec (S (length r1)) fuel [] r1 with
                  | DErr e => DErr e
                  | DOk (args, r2) =>
                      match r2 with
                      | c :: _ => if is T_DBL_COLON c then DErr 4 else DOk (rev (kval t :: acc), args, r2)
                      | [] => DOk (rev (kval t :: acc), args, r2)
                      end
                  end
                else if is T_DBL_COLON x then inst_names n' fuel (kval t :: acc) r1
                else DErr 1                         (* the last segment has no template arguments *)
            | [] => DErr 1
            end
          else if memN (kty t) pqname_start_tokens then DErr 4
          else DErr 1
      | [] => DErr 2
      end
  end.

Record tinst := mkTI { ti_root : bool; ti_names : list N; ti_args : list targ }.

Definition inst_stmt (fuel : nat) (toks : list tk) : dres (tinst * list tk) :=
  match toks with
  | k :: r =>
      if is T_class k || is T_struct k then
        match r with
        | a :: r1 =>
            if memN (kty a) attribute_start_tokens then DErr 4
            else
              let '(root, r2) := if is T_DBL_COLON a then (true, r1) else (false, r) in
              match inst_names (S (length r2)) fuel [] r2 with
              | DErr e => DErr e
              | DOk (names, args, r3) =>
                  match r3 with
                  | s :: r4 => if is SEMI s then DOk (mkTI root names args, r4) else DErr 1
                  | [] => DErr 2
                  end
              end
        | [] => DErr 2
        end
      else DErr 1
  | [] => DErr 1
  end.

Fixpoint qnames_toks (q : list N) (last : N) : list tk :=
  match q with
  | [] => [mkTk T_NAME last]
  | n :: r => mkTk T_NAME n :: ktok T_DBL_COLON :: qnames_toks r last
  end.

(* [n] is what inst_stmt gives: more than the length of the stream *)
Lemma inst_names_rt : forall q last acc Y args X n f,
  hd_out [T_DBL_COLON] X = true ->
  (length (qnames_toks q last ++ ktok LTi :: Y) < n)%nat ->
  tspec (S (length Y)) f [] Y = DOk (args, X) ->
  inst_names n f acc (qnames_toks q last ++ ktok LTi :: Y) = DOk (rev acc ++ q ++ [last], args, X).
Proof.
  induction q as [|a q IH]; intros last acc Y args X n f HX Hn Hts.
  - destruct n as [|n']; [inversion Hn|]. cbn [qnames_toks app inst_names].
    isc. rewrite Hts. cbn [kval rev]. destruct X as [|c r]; [reflexivity|]. now rewrite (hd_out_is _ _ _ _ HX).
  - destruct n as [|n']; [inversion Hn|]. cbn [qnames_toks app inst_names].
    isc. cbn [kval].
    rewrite (IH last (a :: acc) Y args X n' f HX ltac:(cbn [qnames_toks app length] in Hn; lia) Hts).
    cbn [rev]. rewrite <- app_assoc. reflexivity.
Qed.

(* `class|struct [::] A::B::X < args > ;` *)
Theorem inst_stmt_roundtrip (key : tk) (root : bool) q last args rest :
  is T_class key || is T_struct key = true -> args <> [] -> Forall warg_ok args ->
  ev (fun f => inst_stmt f (key :: (if root then [ktok T_DBL_COLON] else []) ++ qnames_toks q last ++ ktok LTi :: targs_toks args ++ ktok GT :: ktok SEMI :: rest))
     (DOk (mkTI root (q ++ [last]) (map warg_out args), rest)).
Proof.
  intros Hkey Hne Hok.
  set (X := ktok SEMI :: rest). set (Y := targs_toks args ++ ktok GT :: X).
  assert (Hts : ev (fun f => tspec (S (length Y)) f [] Y) (DOk (map warg_out args, X))).
  { apply (tspec_rt args [] X _ Hne Hok). destruct args as [|a r]; [contradiction|]. unfold Y. rewrite targs_join, app_length.
    pose proof (join_comma_length (warg_toks a) (map warg_toks r)) as L. rewrite map_length in L. cbn [map length]. lia. }
  apply (ev_with Hts), ev_always. intros f E.
  pose proof (inst_names_rt q last [] Y _ X _ f eq_refl (le_n _) E) as HH.
  unfold inst_stmt. rewrite Hkey.
  destruct root; cbn [app].
  - isc. now rewrite HH.
  - (* the first token is a name, not an attribute or '::' *)
    destruct q as [|a q']; cbn [qnames_toks app] in *; isc; now rewrite HH.
Qed.
