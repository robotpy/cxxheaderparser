(* C16 -- Formatted token values re-lex to the same tokens.
   Model: Fmt/TokFmt.v (hand-written mirror of tokfmt/_fuses, bodies pinned by
   text; spacing table and fuse pairs regenerated) composed with the lexer and
   stream models.  The statements below are over a FINITE alphabet (the
   representative table, regenerated and typed by the live lexer) and a stated
   length bound; they are instances of Fmt/TokFmtThms.relex_seq (sequences of
   any length over a table that passes the check [seq_ok] of its tokens and
   unseparated pairs), and the check is decided for the table by vm_compute,
   which is a proof for a finite domain.  Sequences over arbitrary texts rest
   on the search of harness/props/c16.py (hence _partial). *)
From Coq Require Import NArith List.
Import ListNotations.
From CXV Require Import Gen.TokTy Gen.Reps Fmt.TokFmt Fmt.TokFmtThms.
Open Scope N_scope.

(* every representative alone, and every ordered pair of representatives (all
   keywords, all punctuators, several texts per literal/name class incl. the
   collision-prone ones): formatting then lexing gives back the same tokens *)
Theorem relex_pairs_partial :
  forall a b : vtok, In a reps -> In b reps -> relex [a; b] = [a; b].
Proof. exact relex_pairs_lemma. Qed.

Theorem relex_single :
  forall a : vtok, In a reps -> relex [a] = [a].
Proof. exact relex_single_lemma. Qed.

(* every sequence of length 3 over one representative per token class *)
Theorem relex_triples_partial :
  forall a b c : vtok, In a class_reps -> In b class_reps -> In c class_reps -> relex [a; b; c] = [a; b; c].
Proof. exact relex_triples_lemma. Qed.

(* for sequences of ANY length: the output is the values in order, each
   preceded by nothing or one blank - tokfmt never drops, reorders or splits *)
Theorem tokfmt_structure :
  forall (toks : list vtok) (last : N) (prev : list N),
    exists seps, length seps = length toks /\ tokfmt_go last prev toks = strip_layout seps toks.
Proof. exact tokfmt_structure_lemma. Qed.

Print Assumptions relex_pairs_partial.
Print Assumptions relex_single.
Print Assumptions relex_triples_partial.
Print Assumptions tokfmt_structure.

(* non-vacuity: the table is not empty and contains the collision-prone texts *)
Example c16_nonvacuous :
  (150 <=? N.of_nat (length reps)) = true /\ In (T_LIT_38, [38]) reps /\ In (T_DBL_AMP, [38; 38]) reps.
Proof.
  split; [|split; apply existsb_vtok_In]; vm_compute; reflexivity.
Qed.
