(* The dispatch loop of CxxParser.parse and its hand-over of the pending
   documentation text.  The dispatch table and the _keep_doxygen set are the
   regenerated ones (Gen/TopLoop.v); the loop itself is a hand-written mirror
   of the reference loop whose AST the translator compares with the live code
   on every run:

       while True:
           if doxygen is None: doxygen = get_doxygen()
           tok = get_token_eof_ok();  if not tok: break
           fn = table.get(tok.type)
           if fn:  fn(tok, doxygen);  if tok.type not in keep: doxygen = None
           else:   self._parse_declarations(tok, doxygen);  doxygen = None

   A statement is seen through two things: the documentation block in front of
   its first token (what get_doxygen returns if it is asked) and the type of
   that token.  The same loop runs inside namespace, extern and class blocks
   (blocks are state pushes, not recursive calls). *)
From Coq Require Import NArith List Bool.
Import ListNotations.
From CXV Require Import Gen.TokTy Gen.TopLoop Parse.Balanced.
Open Scope N_scope.

Section Loop.
  Variable D : Type.        (* documentation text *)

  Record stmt := mkStmt { s_blk : option D; s_ty : N }.

  Inductive target := THandler (h : N) | TDecl.      (* a table handler | _parse_declarations *)

  Definition dispatch (ty : N) : target :=
    match assocN ty tu_table with Some h => THandler h | None => TDecl end.

  (* does the pending text survive this statement? *)
  Definition kept (s : stmt) : bool :=
    match dispatch (s_ty s) with THandler _ => memN (s_ty s) keep_doxygen | TDecl => false end.

  Definition handed (pending : option D) (s : stmt) : option D :=
    match pending with None => s_blk s | Some _ => pending end.

  (* one iteration: the call made, and the pending text afterwards *)
  Definition iter (pending : option D) (s : stmt) : (target * option D) * option D :=
    ((dispatch (s_ty s), handed pending s), if kept s then handed pending s else None).

  Fixpoint run (pending : option D) (l : list stmt) : list (target * option D) :=
    match l with
    | [] => []
    | s :: r => fst (iter pending s) :: run (snd (iter pending s)) r
    end.

  Fixpoint pend (pending : option D) (l : list stmt) : option D :=
    match l with [] => pending | s :: r => pend (snd (iter pending s)) r end.

  Lemma run_app p l1 l2 : run p (l1 ++ l2) = run p l1 ++ run (pend p l1) l2.
  Proof. revert p. induction l1 as [|s r IH]; intros p; [reflexivity|]. cbn [app run pend]. now rewrite IH. Qed.

  Lemma pend_app p l1 l2 : pend p (l1 ++ l2) = pend (pend p l1) l2.
  Proof. revert p. induction l1 as [|s r IH]; intros p; [reflexivity|]. cbn [app pend]. now rewrite IH. Qed.

  Lemma calls_in_order p l : map fst (run p l) = map (fun s => dispatch (s_ty s)) l.
  Proof. revert p. induction l as [|s r IH]; intros p; [reflexivity|]. cbn [run map iter fst]. now rewrite IH. Qed.

  Definition handed_to (p : option D) (l : list stmt) (x : stmt) : option D := handed (pend p l) x.

  (* the invariant of the loop: what is pending behind a statement is what was handed to it, if it is a kept decoration,
     and nothing otherwise *)
  Lemma pend_snoc p l s : pend p (l ++ [s]) = if kept s then handed_to p l s else None.
  Proof. rewrite pend_app. reflexivity. Qed.

  Lemma run_nth p l x post : run p (l ++ x :: post) = run p l ++ (dispatch (s_ty x), handed_to p l x) :: run (pend p (l ++ [x])) post.
  Proof. rewrite run_app. cbn [run iter fst snd]. rewrite pend_app. reflexivity. Qed.

  Lemma handed_after p l s x :
    handed_to p (l ++ [s]) x =
      if kept s then match handed_to p l s with Some d => Some d | None => s_blk x end else s_blk x.
  Proof.
    unfold handed_to at 1. rewrite pend_snoc. destruct (kept s); [|reflexivity].
    unfold handed. destruct (handed_to p l s); reflexivity.
  Qed.
End Loop.

Definition keep_are_decorations : bool :=
  forallb (fun ty => match assocN ty tu_table with
                     | Some h => (h =? H_consume_gcc_attribute) || (h =? H_consume_declspec) || (h =? H_consume_attribute_specifier_seq)
                     | None => false
                     end) keep_doxygen.

Definition boundary_types : list N :=
  [T_public; T_private; T_protected; T_LIT_123; T_LIT_125; T_LIT_59; T_namespace; T_using; T_typedef; T_template; T_extern;
   T_friend; T_inline; T_static_assert; T_INCLUDE_DIRECTIVE; T_PRAGMA_DIRECTIVE].
Definition boundaries_reset : bool :=
  forallb (fun ty => negb (memN ty keep_doxygen) && match assocN ty tu_table with Some _ => true | None => false end) boundary_types.

Lemma keep_are_decorations_true : keep_are_decorations = true.
Proof. vm_compute. reflexivity. Qed.
Lemma boundaries_reset_true : boundaries_reset = true.
Proof. vm_compute. reflexivity. Qed.

Lemma declaration_resets (D : Type) (s : stmt D) : assocN (s_ty D s) tu_table = None -> kept D s = false.
Proof. intros H. unfold kept, dispatch. now rewrite H. Qed.

Lemma boundary_resets (D : Type) (s : stmt D) : In (s_ty D s) boundary_types -> kept D s = false.
Proof.
  intros Hin. pose proof boundaries_reset_true as H. unfold boundaries_reset in H.
  rewrite forallb_forall in H. specialize (H _ Hin). apply andb_prop in H as [H1 H2].
  unfold kept, dispatch. destruct (assocN (s_ty D s) tu_table); [|discriminate]. now apply negb_true_iff in H1.
Qed.

Lemma toploop_reference : toploop_is_reference = true.
Proof. reflexivity. Qed.
