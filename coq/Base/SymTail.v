(* Matching a known prefix whose tail is unknown: [smatch r s] runs the matcher
   of Base/Regex.v on [s] and answers [Dunno] as soon as the outcome would
   depend on what follows [s].  Whatever it does answer holds for every tail
   ([smatch_sound]). *)
From Coq Require Import NArith List Lia.
Import ListNotations.
From CXV Require Import Base.Regex.
Open Scope N_scope.

Inductive tri (A : Type) := Yes (a : A) | No | Dunno.
Arguments Yes {A} a. Arguments No {A}. Arguments Dunno {A}.

Fixpoint smatch (A : Type) (r : rx) (s : list N) (k : list N -> tri A) {struct r} : tri A :=
  match r with
  | Eps => k s
  | Chr neg l => match s with c :: s' => if chr_ok neg l c then k s' else No | [] => Dunno end
  | Cat a b => smatch A a s (fun s' => smatch A b s' k)
  | Alt a b => match smatch A a s k with No => smatch A b s k | y => y end
  | Star body =>
      (fix star (n : nat) (s : list N) {struct n} : tri A :=
         match n with
         | S n' => match smatch A body s (fun s' => star n' s') with No => k s | y => y end
         | O => Dunno
         end) (length s) s
  | NotAhead a =>
      match smatch unit a s (fun _ => Yes tt) with
      | Yes _ => No
      | No => k s
      | Dunno => Dunno
      end
  | AtEnd => match s with _ :: _ :: _ => No | _ => Dunno end
  end.
Arguments smatch {A} r s k.

(* [x] is the outcome on the whole text, [y] the answer on its known part;
   [f] puts the tail back into what [y] carries *)
Definition agrees {A B} (f : B -> A) (x : option A) (y : tri B) : Prop :=
  match y with Yes b => x = Some (f b) | No => x = None | Dunno => True end.

Lemma agrees_orelse {A B} (f : B -> A) x x' y y' :
  agrees f x y -> agrees f x' y' ->
  agrees f match x with Some a => Some a | None => x' end
           match y with Yes b => Yes b | No => y' | Dunno => Dunno end.
Proof. destruct y; cbn [agrees]; try intros ->; auto. Qed.

Theorem smatch_sound : forall r A B (f : B -> A) t s (kc : list N -> option A) (ks : list N -> tri B),
  (forall s', agrees f (kc (s' ++ t)) (ks s')) ->
  agrees f (rmatch r (s ++ t) kc) (smatch r s ks).
Proof.
  induction r as [|neg l|a IHa b IHb|a IHa b IHb|body IH|a IHa|];
    cbn [rmatch smatch]; intros A B f t s kc ks H.
  - apply H.
  - destruct s as [|c s']; [exact I|]. cbn [app]. destruct (chr_ok neg l c); [apply H|reflexivity].
  - apply IHa. intros s'. now apply IHb.
  - apply agrees_orelse; [now apply IHa|now apply IHb].
  - (* our loop never has more fuel than the matcher's, and gives up when it is out *)
    assert (L : (length s <= length (s ++ t))%nat) by (rewrite app_length; lia).
    revert L. generalize (length (s ++ t)) as m, (length s) as n. intros m n. revert m s.
    induction n as [|n IHn]; intros m s L; [exact I|]. destruct m as [|m]; [lia|].
    (* induction and destruct leave both loops unfolded by one round, and a round of either is an instance
       of agrees_orelse as it stands: smatch's [y => y] elaborates to [Yes b => Yes b | Dunno => Dunno] *)
    apply agrees_orelse; [|apply H]. apply IH. intros s'. apply IHn. lia.
  - specialize (IHa unit unit (fun u => u) t s (fun _ => Some tt) (fun _ => Yes tt) (fun _ => eq_refl)).
    destruct (smatch a s (fun _ => Yes tt)); cbn [agrees] in IHa |- *; [now rewrite IHa| |exact I].
    rewrite IHa. apply H.
  - destruct s as [|c [|d s']]; try exact I. cbn [app agrees].
    replace (at_end (c :: d :: s' ++ t)) with false; [reflexivity|].
    (* at_end compares c with 10 bit by bit before it looks at the rest *)
    destruct c as [|p]; [reflexivity|]. repeat (destruct p as [p|p|]; try reflexivity).
Qed.
