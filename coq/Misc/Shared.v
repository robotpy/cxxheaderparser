(* C15: parses are isolated.  A history is an arbitrary interleaving of steps
   of many parses (sequential, nested from callbacks, concurrent).  The model
   records WHERE each step may read and write: its own private state and,
   read-only, the state shared by all parses (lexer prototype, PhonyEnding,
   class-level tables, null_visitor).  That no step writes the shared state is
   not assumed silently: it is the recomputed AST fact
   fact_shared_objects_never_stored_to, cross-checked at run time by snapshots. *)
From Coq Require Import NArith List.
Open Scope N_scope.

Section Isolation.
  Variables Shared Priv Op : Type.
  Variable init : Shared -> N -> Priv.               (* CxxParser(...) for parse number i: clones the prototype *)
  Variable step : Shared -> Priv -> Op -> Priv.

  Definition world : Type := N -> option Priv.

  Definition upd (w : world) (i : N) (p : Priv) : world := fun j => if j =? i then Some p else w j.

  Inductive ev := Start (i : N) | Step (i : N) (o : Op).

  Definition apply (sh : Shared) (w : world) (e : ev) : world :=
    match e with
    | Start i => upd w i (init sh i)
    | Step i o => match w i with Some p => upd w i (step sh p o) | None => w end
    end.

  Definition run (sh : Shared) (h : list ev) : world := fold_left (apply sh) h (fun _ => None).

  Definition mine (i : N) (e : ev) : bool :=
    match e with Start j => j =? i | Step j _ => j =? i end.

  Lemma apply_other sh w e i : mine i e = false -> apply sh w e i = w i.
  Proof.
    destruct e as [j|j o]; cbn [mine apply]; intros H.
    - unfold upd. rewrite N.eqb_sym in H. now rewrite H.
    - destruct (w j); [|reflexivity]. unfold upd. rewrite N.eqb_sym in H. now rewrite H.
  Qed.

  Lemma apply_mine sh w w' e i : mine i e = true -> w i = w' i -> apply sh w e i = apply sh w' e i.
  Proof.
    destruct e as [j|j o]; cbn [mine apply]; intros H E; apply N.eqb_eq in H; subst j.
    - unfold upd. now rewrite N.eqb_refl.
    - rewrite <- E. destruct (w i) eqn:Ew; [|now rewrite <- E]. unfold upd. now rewrite N.eqb_refl.
  Qed.

  Lemma isolation_from sh i : forall (h : list ev) (w w' : world), w i = w' i ->
    fold_left (apply sh) h w i = fold_left (apply sh) (filter (mine i) h) w' i.
  Proof.
    induction h as [|e h IH]; intros w w' E; [exact E|].
    cbn [fold_left filter]. destruct (mine i e) eqn:M.
    - cbn [fold_left]. apply IH. now apply apply_mine.
    - apply IH. rewrite (apply_other sh w e i M). exact E.
  Qed.

  Theorem isolation_lemma sh : forall (h : list ev) (i : N),
    run sh h i = run sh (filter (mine i) h) i.
  Proof. intros h i. now apply isolation_from. Qed.
End Isolation.

(* the lexer prototype: every PlyLexer works on a clone of the prototype built
   once; a clone of a never-advanced prototype is a fresh lexer *)
Record lexrec := mkLex { lx_pos : N; lx_line : N; lx_data : option (list N) }.
Definition fresh_lexer : lexrec := mkLex 0 1 None.
Definition clone (proto : lexrec) : lexrec := mkLex (lx_pos proto) (lx_line proto) (lx_data proto).

Lemma clone_is_fresh_lemma proto : proto = fresh_lexer -> clone proto = fresh_lexer.
Proof. intros ->. reflexivity. Qed.
