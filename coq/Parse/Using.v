(* Hand-written mirror of CxxParser._parse_using with _parse_using_directive,
   _parse_using_declaration and _parse_using_typealias (entered after the
   `using` keyword): the three statements are told apart by the first token
   (namespace | '::' | typename | NAME | enum) and by whether '=' follows it;
   the directive collects [::] NAME (:: NAME)*, the declaration is a qualified
   name (Parse/PQName.v; a leading `typename` is skipped and not recorded, as
   the code does), the alias is NAME '=' type-id (alias_type of
   Parse/Declarator.v).  Every form ends with ';'.
   Tied to the code by the differential run of harness/props/c01.py (the real
   _parse_using on the same token lists) and the digest pin of Gen/PinsC01.v. *)
From Coq Require Import NArith List Bool Lia.
Import ListNotations.
From CXV Require Import Gen.TokTy Gen.ParserTables Parse.Balanced Parse.Declarator Parse.DeclSpec Parse.DeclThms Parse.PQName.
Open Scope N_scope.

Inductive ures :=
| UDir (root : bool) (names : list N)       (* using namespace [::] a::b; *)
| UDecl (q : pq)                            (* using [typename] a::b::c; *)
| UAlias (name : N) (t : ty).               (* using A = type-id; *)

(* `while True: NAME; if not '::' break` *)
Fixpoint udir_names (n : nat) (acc : list N) (toks : list tk) {struct n} : dres (list N * list tk) :=
  match n with
  | O => DErr 9
  | S n' =>
      match toks with
      | t :: r =>
          if is T_NAME t then
            match r with
            | c :: r1 => if is T_DBL_COLON c then udir_names n' (kval t :: acc) r1 else DOk (rev (kval t :: acc), r)
            | [] => DOk (rev (kval t :: acc), r)
            end
          else DErr 1
      | [] => DErr 2
      end
  end.

(* type-ids this model declines with code 4: behind the cv-qualifiers stands a name-start token that is neither a plain
   NAME nor `void` (a fundamental keyword, a class key, ...), or a NAME that is qualified or templated *)
Definition alias_outside (toks : list tk) : bool :=
  let '(_, _, r) := base_cv false false toks in
  match r with
  | t :: r' => (memN (kty t) pqname_start_tokens && negb (is T_NAME t || is T_void t))
               || (is T_NAME t && match r' with x :: _ => is T_DBL_COLON x || is T_LIT_60 x | [] => false end)
  | [] => false
  end.

Definition using_first (t : tk) : bool :=
  is T_NAME t || is T_DBL_COLON t || is T_namespace t || is T_typename t || is T_enum t.

Definition using_stmt (in_class has_template : bool) (fuel : nat) (toks : list tk) : dres (ures * list tk) :=
  match toks with
  | [] => DErr 2
  | t :: r =>
      if negb (using_first t) then DErr 1
      else
        let body : dres (ures * list tk) :=
          if is T_namespace t then
            if has_template || in_class then DErr 1
            else
              let '(root, r0) := match r with
                                 | c :: r' => if is T_DBL_COLON c then (true, r') else (false, r)
                                 | [] => (false, r)
                                 end in
              match udir_names (S (length r0)) [] r0 with
              | DOk (ns, r1) => DOk (UDir root ns, r1)
              | DErr e => DErr e
              end
          else if is T_DBL_COLON t || is T_typename t || negb (match r with e :: _ => is EQ e | [] => false end) then
            if has_template then DErr 1
            else
              match parse_pqname (if is T_typename t then r else toks) with
              | DOk (q, r1) => DOk (UDecl q, r1)
              | DErr e => DErr e
              end
          else if alias_outside (tl r) then DErr 4
          else
            match alias_type fuel (tl r) with
            | DOk (ty, r1) => DOk (UAlias (kval t) ty, r1)
            | DErr e => DErr e
            end in
        match body with
        | DErr e => DErr e
        | DOk (u, r1) =>
            match r1 with
            | s :: r2 => if is SEMI s then DOk (u, r2) else DErr 1
            | [] => DErr 2
            end
        end
  end.

Definition udir_toks (root : bool) (n : N) (q : list N) : list tk :=
  ktok T_namespace :: (if root then [ktok T_DBL_COLON] else []) ++ mkTk T_NAME n :: flat_map (fun m => [ktok T_DBL_COLON; mkTk T_NAME m]) q.

Lemma udir_names_rt : forall q n acc rest fuel,
  (length (mkTk T_NAME n :: flat_map (fun m => [ktok T_DBL_COLON; mkTk T_NAME m]) q ++ rest) < fuel)%nat ->
  hd_out [T_DBL_COLON] rest = true ->
  udir_names fuel acc (mkTk T_NAME n :: flat_map (fun m => [ktok T_DBL_COLON; mkTk T_NAME m]) q ++ rest)
  = DOk (rev acc ++ n :: q, rest).
Proof.
  induction q as [|m q IH]; intros n acc rest fuel Hf Hstop.
  - destruct fuel as [|fuel]; [inversion Hf|]. cbn [flat_map app udir_names].
    isc. cbn [kval rev].
    destruct rest as [|t r]; [reflexivity|]. now rewrite (hd_out_is _ _ _ _ Hstop).
  - destruct fuel as [|fuel]; [inversion Hf|]. cbn [flat_map app udir_names].
    isc. cbn [kval].
    rewrite IH; [|cbn [flat_map app length] in *; lia|exact Hstop]. cbn [rev]. now rewrite <- app_assoc.
Qed.

(* `using namespace [::] a::b::c;` *)
Theorem using_directive_roundtrip root n q fuel rest :
  using_stmt false false fuel (udir_toks root n q ++ ktok SEMI :: rest) = DOk (UDir root (n :: q), rest).
Proof.
  unfold using_stmt, udir_toks. cbn [app].
  unfold using_first. isc.
  destruct root; cbn [app].
  - isc. rewrite (udir_names_rt q n []) by (reflexivity || apply le_n). isc. reflexivity.
  - isc. rewrite (udir_names_rt q n []) by (reflexivity || apply le_n). isc. reflexivity.
Qed.

Theorem using_directive_misplaced in_class has_template fuel r :
  in_class || has_template = true -> exists e, using_stmt in_class has_template fuel (ktok T_namespace :: r) = DErr e.
Proof.
  intros H. unfold using_stmt. unfold using_first. isc.
  rewrite orb_comm, H. now exists 1.
Qed.

(* `using [typename] [::] a::b::c;`.  A single unqualified name (`using a;`, not C++) is read the same way: the parser
   does not ask for a '::' *)
Theorem using_declaration_any (tn root : bool) n q in_class fuel rest :
  using_stmt in_class false fuel (pn2_toks (PNames tn [] root n q) ++ ktok SEMI :: rest)
  = DOk (UDecl (pn2_out (PNames false [] root n q)), rest).
Proof.
  assert (Hstop : name_stop (ktok SEMI :: rest)) by (split; reflexivity).
  pose proof (pqname_roundtrip (PNames false [] root n q) (ktok SEMI :: rest)) as HP.
  cbn [pn2_ok] in HP. specialize (HP (conj eq_refl (conj (fun H => eq_refl) Hstop))).
  (* a statement that starts with a name is a declaration unless '=' follows it: here '::' or ';' does *)
  assert (Hq : match flat_map (fun m => [ktok T_DBL_COLON; mkTk T_NAME m]) q ++ ktok SEMI :: rest with
               | e :: _ => is EQ e
               | [] => false
               end = false) by (destruct q; reflexivity).
  unfold using_stmt, using_first. cbn [pn2_toks map app] in *.
  destruct tn, root; cbn [app] in *; isc.
  - now rewrite HP.
  - now rewrite HP.
  - now rewrite HP.
  - now rewrite Hq, HP.
Qed.

Lemma alias_outside_printed t nm rest :
  hd_out [T_DBL_COLON; T_LIT_60] (name_toks nm ++ rest) = true -> alias_outside (decl_toks t nm ++ rest) = false.
Proof.
  intros Hr. destruct (decl_view t nm) as (b & c & v & Ed & _). rewrite Ed, <- app_assoc.
  unfold alias_outside. rewrite base_cv_printed. unfold name_tok.
  pose proof (head_P _ eq_refl eq_refl eq_refl eq_refl eq_refl (layers t) (name_toks nm) rest Hr) as Hq.
  destruct (b =? 0).
  - reflexivity.
  - isc. destruct (P (layers t) (name_toks nm) ++ rest) as [|x xs]; [reflexivity|].
    now rewrite !(hd_out_is _ _ _ _ Hq).
Qed.

(* `using A = type-id;` *)
Theorem using_alias_roundtrip a t in_class has_template rest :
  wf t -> kind_of t <> KFn ->
  ev (fun f => using_stmt in_class has_template f (mkTk T_NAME a :: ktok EQ :: decl_toks t None ++ ktok SEMI :: rest))
              (DOk (UAlias a t, rest)).
Proof.
  intros Hwf Hk. apply (ev_with (alias_roundtrip t (ktok SEMI :: rest) Hwf Hk eq_refl)), ev_always. intros f E.
  unfold using_stmt, using_first. isc. cbn [tl kval].
  rewrite (alias_outside_printed t None (ktok SEMI :: rest) eq_refl), E. isc. reflexivity.
Qed.

Example ex_using :
  using_stmt false false 10 (udir_toks true 1 [2; 3] ++ [ktok SEMI]) = DOk (UDir true [1; 2; 3], [])
  /\ using_stmt true false 10 [mkTk T_NAME 1; ktok T_DBL_COLON; mkTk T_NAME 2; ktok SEMI] = DOk (UDecl (mkPQ [] false [SName 1; SName 2]), [])
  /\ using_stmt true true 10 [mkTk T_NAME 1; ktok EQ; ktok T_const; mkTk T_NAME 2; ktok STAR; ktok SEMI]
     = DOk (UAlias 1 (TPtr (TBase 2 true false) false false), []).
Proof. vm_compute. repeat split. Qed.
