(* Finite checks over the collecting visitor as translated from simple.py / visitor.py (Gen/VisitorTable.v): decided by
   computation on the regenerated table. *)
From Coq Require Import NArith List.
Import ListNotations.
From CXV Require Import Gen.VisitorTable.
Open Scope N_scope.

Fixpoint eq_name (a b : list N) : bool :=
  match a, b with
  | [], [] => true
  | x :: r, y :: s => (x =? y) && eq_name r s
  | _, _ => false
  end.

Fixpoint nodup_names (l : list (list N)) : bool :=
  match l with
  | [] => true
  | x :: r => negb (existsb (eq_name x) r) && nodup_names r
  end.

Definition row_name (r : list N * N * list N * bool) := fst (fst (fst r)).
Definition row_target (r : list N * N * list N * bool) := snd (fst (fst r)).
Definition row_field (r : list N * N * list N * bool) := snd (fst r).
Definition row_ok (r : list N * N * list N * bool) := snd r.

Definition item_rows := filter (fun r => negb (row_target r =? 2)) visitor_rows.

(* every callback of the protocol is implemented in a shape the translator understands: an item callback is exactly one append
   of its payload to one list of the scope of its state (or of the parsed data), a block callback has the mirrored shape *)
Definition all_translated : bool := forallb row_ok visitor_rows.
Fixpoint same_names (a b : list (list N)) : bool :=
  match a, b with
  | [], [] => true
  | x :: r, y :: s => eq_name x y && same_names r s
  | _, _ => false
  end.
Definition covers_protocol : bool := same_names (map row_name visitor_rows) protocol_callbacks.
(* no two item callbacks store into the same list: the order of a list is the delivery order of ONE callback *)
Definition item_fields_distinct : bool := nodup_names (map row_field item_rows).

Lemma all_translated_true : all_translated = true. Proof. vm_compute. reflexivity. Qed.
Lemma covers_protocol_true : covers_protocol = true. Proof. vm_compute. reflexivity. Qed.
Lemma item_fields_distinct_true : item_fields_distinct = true. Proof. vm_compute. reflexivity. Qed.
