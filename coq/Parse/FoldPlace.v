(* Placement: in the fold model of SimpleCxxVisitor every item lands in the
   namespace scope in which it was written, in source order, and nothing else
   lands there (C01). *)
From Coq Require Import NArith List.
Import ListNotations.
From CXV Require Import Parse.Fold Parse.FoldThms.
Open Scope N_scope.

Fixpoint assocS (n : N) (l : list (N * nscope)) : option nscope :=
  match l with [] => None | (k, s) :: r => if k =? n then Some s else assocS n r end.

Definition items_of (s : nscope) : list (N * N) := match s with NS i _ _ => i end.
Definition children_of (s : nscope) : list (N * nscope) := match s with NS _ _ ch => ch end.

Fixpoint lookup (path : list N) (s : nscope) : nscope :=
  match path with
  | [] => s
  | n :: r => match assocS n (children_of s) with Some c => lookup r c | None => empty_ns end
  end.

Fixpoint strip_prefix (p path : list N) : option (list N) :=
  match p, path with
  | [], _ => Some path
  | a :: p', b :: path' => if a =? b then strip_prefix p' path' else None
  | _ :: _, [] => None
  end.

(* the items written directly in the namespace [path], in source order:
   items at the current level when the path is exhausted, the contents of
   extern blocks transparently, the contents of `namespace a::b { }` when its
   names are a prefix of the path; class bodies keep their own items *)
Fixpoint written (path : list N) (e : elem) {struct e} : list (N * N) :=
  match e with
  | EItem k p => match path with [] => [(k, p)] | _ => [] end
  | EClass _ _ => []
  | EExtern b => flat_map (written path) b
  | ENs names b =>
      match strip_prefix (ns_names names) path with
      | Some rest => flat_map (written rest) b
      | None => []
      end
  end.

Lemma lookup_empty q : lookup q empty_ns = empty_ns.
Proof. destruct q; reflexivity. Qed.

Lemma assoc_update n m F : forall ch,
  assocS m (child_update n F ch) =
    if n =? m then Some (F (match assocS n ch with Some c => c | None => empty_ns end)) else assocS m ch.
Proof.
  induction ch as [|[k s] r IH]; cbn [child_update assocS]; [reflexivity|].
  destruct (N.eqb_spec k n) as [->|Hk]; cbn [assocS].
  - now destruct (n =? m).
  - rewrite IH. destruct (N.eqb_spec k m) as [->|]; [|reflexivity].
    destruct (N.eqb_spec n m); [congruence|reflexivity].
Qed.

Lemma lookup_app p : forall r s, lookup (p ++ r) s = lookup r (lookup p s).
Proof.
  induction p as [|n p IH]; intros r s; [reflexivity|]. cbn [app lookup].
  destruct (assocS n (children_of s)); [apply IH|now rewrite lookup_empty].
Qed.

Lemma strip_prefix_app p : forall path rest, strip_prefix p path = Some rest -> path = p ++ rest.
Proof.
  induction p as [|a p IH]; intros path rest H; cbn [strip_prefix] in H.
  - now inversion H.
  - destruct path as [|b path']; [discriminate|]. destruct (N.eqb_spec a b) as [->|]; [|discriminate].
    cbn [app]. f_equal. now apply IH.
Qed.

Lemma lookup_at_path U : forall p s path,
  items_of (lookup path (at_path p U s)) =
    match strip_prefix p path with
    | Some rest => items_of (lookup rest (U (lookup p s)))
    | None => items_of (lookup path s)
    end.
Proof.
  induction p as [|n p IH]; intros s path; [reflexivity|].
  destruct s as [i c ch]. cbn [at_path].
  destruct path as [|m path']; [reflexivity|].
  cbn [strip_prefix lookup children_of].
  rewrite assoc_update. destruct (N.eqb_spec n m) as [->|Hne]; [|reflexivity].
  destruct (assocS m ch) as [c0|].
  - apply IH.
  - rewrite IH. rewrite lookup_empty. destruct (strip_prefix p path'); [reflexivity|now rewrite lookup_empty].
Qed.

Lemma fold_place body : forall s path,
  items_of (lookup path (fold_from s body)) = items_of (lookup path s) ++ flat_map (written path) body.
Proof.
  apply (body_ind' (fun e => forall s path, items_of (lookup path (absorb s e)) = items_of (lookup path s) ++ written path e)
                   (fun b => forall s path, items_of (lookup path (fold_from s b)) = items_of (lookup path s) ++ flat_map (written path) b)).
  - intros k p [i c ch] [|n r]; cbn [absorb written lookup items_of children_of]; [reflexivity|now rewrite app_nil_r].
  - intros names b Hb s path. cbn [absorb written]. rewrite lookup_at_path.
    destruct (strip_prefix (ns_names names) path) as [rest|] eqn:E; [|now rewrite app_nil_r].
    rewrite (strip_prefix_app _ _ _ E), lookup_app. apply Hb.
  - intros b Hb. exact Hb.
  - intros d b [i c ch] path. destruct path; cbn [absorb written lookup items_of children_of]; now rewrite app_nil_r.
  - intros s path. cbn [flat_map]. now rewrite app_nil_r.
  - intros e r He Hr s path. unfold fold_from in *. cbn [fold_left flat_map]. now rewrite Hr, He, app_assoc.
Qed.

Lemma absorb_place e s path : items_of (lookup path (absorb s e)) = items_of (lookup path s) ++ written path e.
Proof. rewrite <- (app_nil_r (written path e)). exact (fold_place [e] s path). Qed.

Theorem items_land_where_written_lemma body path :
  items_of (lookup path (fold_ns body)) = flat_map (written path) body.
Proof. unfold fold_ns. rewrite fold_place, lookup_empty. reflexivity. Qed.
