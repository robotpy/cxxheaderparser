(* C18 -- Parser options change exactly what they document. *)
From Coq Require Import NArith List Bool.
Import ListNotations.
From CXV Require Import Gen.Facts Misc.VoidOpt.
Open Scope N_scope.

(* convert_void_to_zero_params: with the option off the parameter lists are
   kept as written; with it on the result is the off-result with exactly the
   lone-void parameter lists emptied, at every nesting level (functions,
   function pointers, typedefs, parameters of parameters) *)
Theorem void_option_off_is_identity : forall t, build false t = t.
Proof. exact build_off. Qed.

Theorem void_option_exact : forall t, build true t = zero_void (build false t).
Proof. intros t. now rewrite build_off, build_on. Qed.

(* the option is read in exactly one place, the conversion step of
   _parse_parameters (pinned by text), and every parameter list that reaches a
   FunctionType / Function / Method / DeductionGuide comes from that method *)
Theorem void_option_single_site :
  fact_void_option_read_once_in_parse_parameters && fact_param_lists_come_from_parse_parameters = true.
Proof. exact (eq_refl true). Qed.

(* verbose: self.verbose is read only in __init__ (to choose debug_print) and
   in parse()'s handler (re-raise); debug_print calls are expression statements
   with a literal format whose directives match the arguments and whose
   arguments are call-free expressions: the flag cannot influence parser state *)
Theorem verbose_is_inert :
  fact_verbose_only_in_init_and_parse && fact_verbose_only_reraises
  && fact_debug_print_args_pure && fact_debug_print_fmt_is_literal = true.
Proof. exact (eq_refl true). Qed.

(* the preprocessor hook is applied exactly once to (filename, content) and its
   result is what is lexed *)
Theorem preprocessor_once : fact_preprocessor_called_once = true.
Proof. exact (eq_refl true). Qed.

Print Assumptions void_option_off_is_identity.
Print Assumptions void_option_exact.
Print Assumptions void_option_single_site.
Print Assumptions verbose_is_inert.
Print Assumptions preprocessor_once.

(* non-vacuity: a function taking a callback that itself takes a lone void *)
Example c18_nonvacuous :
  build true (TFn (TName 1 0 false) [(TPtr (TFn (TName 1 5 false) [(TName 1 0 false, false)]), true)])
  = TFn (TName 1 0 false) [(TPtr (TFn (TName 1 5 false) []), true)].
Proof. vm_compute. reflexivity. Qed.
