(* Specification side of the declarator model.
   - D : token-level mirror of types.py _format_declarator / format_decl (the
     inside-out declarator printer; outer constructor first, declarator text
     accumulated, parentheses when a suffix is attached to a prefixed text).
   - layers / P : the same text described from the inner end (the order in
     which the parser meets the constructors); DP_eq relates the two.
   - wf : the C++ legality rules of the type trees the theorems quantify over. *)
From Coq Require Import NArith List.
Import ListNotations.
From CXV Require Import Gen.TokTy Parse.BalancedThms Parse.Declarator.
Open Scope N_scope.

Definition ktok (c : N) : tk := mkTk c 0.
Definition cvtoks (c v : bool) : list tk :=
  (if c then [ktok T_const] else []) ++ (if v then [ktok T_volatile] else []).
Definition paren (p : bool) (d : list tk) : list tk := if p then ktok LP :: d ++ [ktok RP] else d.
Definition name_toks (nm : option N) : list tk :=
  match nm with Some n => [mkTk T_NAME n] | None => [] end.

Fixpoint base_of (t : ty) : N * bool * bool :=
  match t with
  | TBase b c v => (b, c, v)
  | TPtr t _ _ | TRef t | TRRef t | TArr t _ | TFn t _ _ => base_of t
  end.

(* Type.format(): const volatile name *)
Definition base_toks (t : ty) : list tk :=
  let '(b, c, v) := base_of t in
  cvtoks c v ++ [if b =? 0 then ktok T_void else mkTk T_NAME b].

Fixpoint join_comma (l : list (list tk)) : list tk :=
  match l with
  | [] => []
  | [x] => x
  | x :: r => x ++ ktok COMMA :: join_comma r
  end.

Definition va_toks (va : bool) : list (list tk) := if va then [[ktok T_ELLIPSIS]] else [].

Fixpoint D (t : ty) (d : list tk) (pfx : bool) {struct t} : list tk :=
  match t with
  | TBase _ _ _ => d
  | TPtr t c v => D t (ktok STAR :: cvtoks c v ++ d) true
  | TRef t => D t (ktok AMP :: d) true
  | TRRef t => D t (ktok T_DBL_AMP :: d) true
  | TArr t s => D t (paren pfx d ++ ktok LB :: s ++ [ktok RB]) false
  | TFn r ps va =>
      let pts := (fix go (ps : list (ty * option N)) : list (list tk) :=
                    match ps with
                    | [] => []
                    | (t, nm) :: q => (base_toks t ++ D t (name_toks nm) false) :: go q
                    end) ps in
      D r (paren pfx d ++ ktok LP :: join_comma (pts ++ va_toks va) ++ [ktok RP]) false
  end.

(* format() of a function argument object / format_decl(name) *)
Definition decl_toks (t : ty) (nm : option N) : list tk := base_toks t ++ D t (name_toks nm) false.
Definition params_toks (ps : list (ty * option N)) (va : bool) : list tk :=
  join_comma (map (fun p => decl_toks (fst p) (snd p)) ps ++ va_toks va).

Lemma D_fn r ps va d pfx :
  D (TFn r ps va) d pfx = D r (paren pfx d ++ ktok LP :: params_toks ps va ++ [ktok RP]) false.
Proof.
  cbn [D]. unfold params_toks.
  match goal with |- D r (_ ++ _ :: join_comma (?g ps ++ _) ++ _) _ = _ =>
    assert (E : g ps = map (fun p => decl_toks (fst p) (snd p)) ps) end.
  { induction ps as [|[t nm] q IH]; [reflexivity|]. cbn [map fst snd]. now rewrite IH. }
  now rewrite E.
Qed.

Inductive layer :=
| LPtr (c v : bool) | LRef | LRRef
| LArr (s : list tk)
| LFn (ps : list (ty * option N)) (va : bool).

Definition wrap1 (a : ty) (l : layer) : ty :=
  match l with
  | LPtr c v => TPtr a c v | LRef => TRef a | LRRef => TRRef a
  | LArr s => TArr a s | LFn ps va => TFn a ps va
  end.
Definition wrap (a : ty) (ls : list layer) : ty := fold_left wrap1 ls a.

Definition is_pfx (l : layer) : bool :=
  match l with LPtr _ _ | LRef | LRRef => true | _ => false end.
Definition starts_pfx (ls : list layer) : bool :=
  match ls with l :: _ => is_pfx l | [] => false end.

Fixpoint P (ls : list layer) (core : list tk) : list tk :=
  match ls with
  | [] => core
  | LPtr c v :: r => ktok STAR :: cvtoks c v ++ P r core
  | LRef :: r => ktok AMP :: P r core
  | LRRef :: r => ktok T_DBL_AMP :: P r core
  | LArr s :: r => paren (starts_pfx r) (P r core) ++ ktok LB :: s ++ [ktok RB]
  | LFn ps va :: r => paren (starts_pfx r) (P r core) ++ ktok LP :: params_toks ps va ++ [ktok RP]
  end.

Fixpoint layers (t : ty) : list layer :=
  match t with
  | TBase _ _ _ => []
  | TPtr t c v => layers t ++ [LPtr c v]
  | TRef t => layers t ++ [LRef]
  | TRRef t => layers t ++ [LRRef]
  | TArr t s => layers t ++ [LArr s]
  | TFn r ps va => layers r ++ [LFn ps va]
  end.

Lemma wrap_layers t : forall b c v, base_of t = (b, c, v) -> wrap (TBase b c v) (layers t) = t.
Proof.
  unfold wrap.
  induction t as [b0 c0 v0|t IH c0 v0|t IH|t IH|t IH s|r IH ps va]; intros b c v E; cbn [layers base_of] in *;
    [now inversion E|..]; rewrite fold_left_app; cbn [fold_left wrap1]; now rewrite (IH _ _ _ E).
Qed.

Lemma base_of_wrap : forall ls t, base_of (wrap t ls) = base_of t.
Proof.
  induction ls as [|l r IH]; intros t; [reflexivity|].
  unfold wrap in *. cbn [fold_left]. rewrite IH. destruct l; reflexivity.
Qed.

Lemma DP_eq t : forall outer core,
  D t (P outer core) (starts_pfx outer) = P (layers t ++ outer) core.
Proof.
  induction t as [b c v|t IH c v|t IH|t IH|t IH s|r IH ps va]; intros outer core.
  - reflexivity.
  - cbn [D layers]. rewrite <- app_assoc. cbn [app]. now rewrite <- IH.
  - cbn [D layers]. rewrite <- app_assoc. cbn [app]. now rewrite <- IH.
  - cbn [D layers]. rewrite <- app_assoc. cbn [app]. now rewrite <- IH.
  - cbn [D layers]. rewrite <- app_assoc. cbn [app]. now rewrite <- IH.
  - rewrite D_fn. cbn [layers]. rewrite <- app_assoc. cbn [app]. now rewrite <- IH.
Qed.

Lemma D_is_P t core : D t core false = P (layers t) core.
Proof. rewrite <- (app_nil_r (layers t)). exact (DP_eq t [] core). Qed.

Inductive kd := KB | KRef | KArr | KFn.
Definition kind_of (t : ty) : kd :=
  match t with
  | TBase _ _ _ | TPtr _ _ _ => KB
  | TRef _ | TRRef _ => KRef
  | TArr _ _ => KArr
  | TFn _ _ _ => KFn
  end.
Definition kind_after (l : layer) : kd :=
  match l with LPtr _ _ => KB | LRef | LRRef => KRef | LArr _ => KArr | LFn _ _ => KFn end.

Definition okl (k : kd) (l : layer) : bool :=
  match k, l with
  | KB, _ => true
  | KRef, LFn _ _ => true
  | KRef, _ => false
  | KArr, (LPtr _ _ | LRef | LRRef | LArr _) => true
  | KArr, _ => false
  | KFn, (LPtr _ _ | LRef | LRRef) => true
  | KFn, _ => false
  end.

Fixpoint legalL (k : kd) (ls : list layer) : bool :=
  match ls with
  | [] => true
  | l :: r => okl k l && legalL (kind_after l) r
  end.

Definition follow_ok (rest : list tk) : bool :=
  match rest with
  | t :: _ => negb (is STAR t || is AMP t || is T_DBL_AMP t || is T_const t || is T_volatile t
                    || is LP t || is LB t || is T_NAME t || is T_ELLIPSIS t || is EQ t)
  | [] => true
  end.

Notation SNk := (SN tk kty).

Definition not_lone_void (t : ty) : Prop := match t with TBase 0 _ _ => False | _ => True end.
Definition obj_ty (t : ty) : Prop := kind_of t <> KFn /\ not_lone_void t.

Fixpoint wf (t : ty) : Prop :=
  match t with
  | TBase _ _ _ => True
  | TPtr t _ _ => wf t /\ kind_of t <> KRef                 (* no pointer to reference *)
  | TRef t | TRRef t => wf t /\ kind_of t <> KRef           (* no reference to reference *)
  | TArr t s => wf t /\ (kind_of t = KB \/ kind_of t = KArr) /\ SNk s   (* no array of references or functions *)
  | TFn r ps va =>
      wf r /\ (kind_of r = KB \/ kind_of r = KRef) /\       (* no function returning array or function *)
      (fix all (ps : list (ty * option N)) : Prop :=
         match ps with
         | [] => True
         | (t, _) :: q => (wf t /\ obj_ty t) /\ all q
         end) ps
  end.

Lemma wf_fn r ps va :
  wf (TFn r ps va) <->
  wf r /\ (kind_of r = KB \/ kind_of r = KRef) /\ Forall (fun p => wf (fst p) /\ obj_ty (fst p)) ps.
Proof.
  cbn [wf]. split; intros (H1 & H2 & H3); (split; [exact H1|split; [exact H2|]]).
  - induction ps as [|[t nm] q IH]; [constructor|]. destruct H3 as [Ht Hq]. constructor; [exact Ht|now apply IH].
  - induction ps as [|[t nm] q IH]; [exact I|]. inversion H3 as [|? ? Ht Hq]; subst. split; [exact Ht|now apply IH].
Qed.

Lemma ty_ind' (Q : ty -> Prop) :
  (forall b c v, Q (TBase b c v)) ->
  (forall t c v, Q t -> Q (TPtr t c v)) ->
  (forall t, Q t -> Q (TRef t)) ->
  (forall t, Q t -> Q (TRRef t)) ->
  (forall t s, Q t -> Q (TArr t s)) ->
  (forall r ps va, Q r -> Forall (fun p => Q (fst p)) ps -> Q (TFn r ps va)) ->
  forall t, Q t.
Proof.
  intros Hb Hp Hr Hrr Ha Hf. fix IH 1. intros [b c v|t c v|t|t|t s|r ps va].
  - apply Hb.
  - apply Hp, IH.
  - apply Hr, IH.
  - apply Hrr, IH.
  - apply Ha, IH.
  - apply Hf; [apply IH|].
    induction ps as [|[p nm] q IHq]; constructor; [apply IH|exact IHq].
Qed.
