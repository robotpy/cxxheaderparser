(* C20 -- Entry points and tools agree with one another. *)
From Coq Require Import NArith List Bool.
Import ListNotations.
From CXV Require Import Gen.Facts Misc.ReprModel Gen.Schema Misc.ReprThms.
Open Scope N_scope.

(* the test generator's compact repr, evaluated, reconstructs an equal value:
   for EVERY well-typed tree of dataclass values over the regenerated schema
   (any depth, any lists/dicts), evaluating nondefault_repr gives a value that
   is == to the original under the dataclasses' own equality (compare=False
   fields such as Token.type are ignored by both) *)
Theorem repr_eval_roundtrip :
  forall (n : nat) (v : val), wt schema n v ->
    exists v', eval schema n (nrepr schema n v) = Some v' /\ veq schema n v v' = true.
Proof. exact (repr_eval_roundtrip_lemma schema schema_ok_true). Qed.

(* entry points: parse_string is CxxParser + SimpleCxxVisitor; parse_file hands
   its encoding to CxxParser; the preprocessor hook is applied once to
   (filename, content) before the stream is built (AST facts, recomputed) *)
Theorem entry_equivalence :
  fact_parse_string_is_parser_plus_simple_visitor && fact_parse_file_passes_encoding && fact_preprocessor_called_once = true.
Proof. exact (eq_refl true). Qed.

Print Assumptions repr_eval_roundtrip.
Print Assumptions entry_equivalence.

(* non-vacuity: a Token (class 1 of the schema, two fields) inside a list *)
Example c20_nonvacuous : wt schema 3 (Lst [Obj 1 [Atom 7; Atom 9]]).
Proof.
  apply wt_lst. constructor; [|constructor].
  eapply wt_obj; [vm_compute; reflexivity|reflexivity|].
  repeat constructor.
Qed.
