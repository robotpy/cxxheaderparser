(* Initialisers of variables and fields, as CxxParser._parse_field reads them
   after the declarator: `= expr` (read by _consume_value_until(",", ";")) or a
   brace initialiser `{ ... }` (a balanced group, braces included); a typedef
   takes neither.  With the declarator loop this gives variable statements
   with initialisers.  Bit-fields are outside this model.
   Tied to the code by the differential run of harness/props/c01.py. *)
From Coq Require Import NArith List Bool.
Import ListNotations.
From CXV Require Import Gen.TokTy Parse.Balanced Parse.BalancedThms Parse.Declarator Parse.DeclSpec Parse.DeclThms Parse.EnumList Parse.Specs.
Open Scope N_scope.

Definition init_terms : list N := [COMMA; SEMI].

Definition init_part (is_typedef : bool) (toks : list tk) : dres (option (list tk) * list tk) :=
  match toks with
  | t :: r =>
      if is EQ t then
        if is_typedef then DErr 1
        else match consume_value_until kty init_terms r with
             | Ok (v, r') => DOk (Some v, r')
             | ErrEOF => DErr 2
             | ErrUnexpected _ => DErr 1
             | ErrInternal => DErr 3
             end
      else if is LBRACE t then
        if is_typedef then DErr 1
        else lift (consume kty [RBRACE] [t] r) (fun grp r' => DOk (Some grp, r'))
      else DOk (None, toks)
  | [] => DOk (None, toks)
  end.

Fixpoint decl_list_i (n : nat) (fuel : nat) (is_typedef : bool) (b : ty) (toks : list tk)
  : dres (list (N * ty * option (list tk)) * list tk) :=
  match n with
  | O => DErr 9
  | S n' =>
      match var_tail fuel b toks with
      | DErr e => DErr e
      | DOk (nm, d, r) =>
          match init_part is_typedef r with
          | DErr e => DErr e
          | DOk (iv, r0) =>
              match r0 with
              | s :: r' =>
                  if is COMMA s then
                    match decl_list_i n' fuel is_typedef b r' with
                    | DOk (l, r'') => DOk ((nm, d, iv) :: l, r'')
                    | DErr e => DErr e
                    end
                  else if is SEMI s then DOk ([(nm, d, iv)], r')
                  else DErr 1
              | [] => DErr 2
              end
          end
      end
  end.

Definition var_stmt_i (n fuel : nat) (toks : list tk) : dres (mods * list (N * ty * option (list tk)) * list tk) :=
  match parse_specs toks with
  | DErr e => DErr e
  | DOk (m, b, r) =>
      if validate true false m && negb (m_mutable m) then
        match decl_list_i n fuel false (TBase b (m_const m) (m_volatile m)) r with
        | DOk (l, r') => DOk (m, l, r')
        | DErr e => DErr e
        end
      else DErr 3
  end.

Inductive init :=
| NoInit
| InitEq (e : list tk)          (* = e *)
| InitBrace (soup : list tk).   (* { soup } *)

Definition init_toks (i : init) : list tk :=
  match i with
  | NoInit => []
  | InitEq e => ktok EQ :: e
  | InitBrace soup => ktok LBRACE :: soup ++ [ktok RBRACE]
  end.

Definition init_value (i : init) : option (list tk) :=
  match i with
  | NoInit => None
  | InitEq e => Some e
  | InitBrace soup => Some (ktok LBRACE :: soup ++ [ktok RBRACE])
  end.

Definition init_ok (i : init) : Prop :=
  match i with
  | NoInit => True
  | InitEq e => Expr tk kty init_terms e
  | InitBrace soup => SNk soup
  end.

Definition sep_ok (sep : tk) : Prop := sep = ktok COMMA \/ sep = ktok SEMI.

Lemma init_part_sep td i sep rest :
  init_ok i -> (td = true -> i = NoInit) -> sep_ok sep ->
  init_part td (init_toks i ++ sep :: rest) = DOk (init_value i, sep :: rest).
Proof.
  intros Hi Htd Hsep. destruct i as [|e|soup]; cbn [init_toks init_value app init_part].
  - destruct Hsep as [->| ->]; reflexivity.
  - isc. destruct td; [discriminate (Htd eq_refl)|].
    rewrite (value_is_whole tk kty init_terms e (sep :: rest) Hi); [reflexivity|].
    destruct Hsep as [->| ->]; reflexivity.
  - isc. destruct td; [discriminate (Htd eq_refl)|].
    rewrite <- app_assoc. cbn [app]. rewrite consume_group by (reflexivity || discriminate || assumption).
    reflexivity.
Qed.

Definition item := (list layer * N * init)%type.
Definition item_toks (it : item) : list tk := P (fst (fst it)) [mkTk T_NAME (snd (fst it))] ++ init_toks (snd it).
Definition item_ok (it : item) : Prop :=
  legalL KB (fst (fst it)) = true /\ Forall layer_ok (fst (fst it)) /\ kind_end KB (fst (fst it)) <> KFn /\ init_ok (snd it).

(* what the round trip of the declarator asks of the tokens behind it *)
Lemma init_head_sep i sep rest : sep_ok sep ->
  stops (init_toks i ++ sep :: rest) = true /\ nolb (init_toks i ++ sep :: rest) = true /\ nolp (init_toks i ++ sep :: rest) = true.
Proof. intros [->| ->]; destruct i; repeat split; reflexivity. Qed.

Lemma sep_ok_ktok (cm : bool) : sep_ok (ktok (if cm then COMMA else SEMI)).
Proof. destruct cm; [left|right]; reflexivity. Qed.

Lemma decl_list_i_rt b c v : forall items rest,
  items <> [] -> Forall item_ok items ->
  ev (fun f => decl_list_i (length items) f false (TBase b c v)
                 (join_comma (map item_toks items) ++ ktok SEMI :: rest))
     (DOk (map (fun it => (snd (fst it), wrap (TBase b c v) (fst (fst it)), init_value (snd it))) items, rest)).
Proof.
  apply (sep_rt (fun n f => decl_list_i n f false (TBase b c v))).
  intros [[ls n] i] k cm Y (Hleg & Hok & Hk & Hi). unfold item_toks. cbn [fst snd] in *. rewrite <- app_assoc.
  destruct (init_head_sep i _ Y (sep_ok_ktok cm)) as (S1 & S2 & S3).
  apply (ev_with (var_tail_layers b c v ls n _ Hleg Hok Hk S1 S2 S3)), ev_always. intros f E.
  cbn [decl_list_i]. rewrite E.
  rewrite (init_part_sep false i _ Y Hi ltac:(discriminate) (sep_ok_ktok cm)).
  now destruct cm.
Qed.

(* `spec* T spec* d1 [init], ..., dn [init];` *)
Theorem var_stmt_i_roundtrip pre post b items rest :
  forallb spec_kw pre = true -> forallb spec_kw post = true ->
  has T_explicit (pre ++ post) = false -> has T_virtual (pre ++ post) = false -> has T_mutable (pre ++ post) = false ->
  items <> [] -> Forall item_ok items ->
  ev (fun f => var_stmt_i (length items) f
                 (kw_toks pre ++ nm_tok b :: kw_toks post ++ join_comma (map item_toks items) ++ ktok SEMI :: rest))
     (DOk (apply_kws (pre ++ post) mods0,
           map (fun it => (snd (fst it),
                           wrap (TBase b (m_const (apply_kws (pre ++ post) mods0)) (m_volatile (apply_kws (pre ++ post) mods0))) (fst (fst it)),
                           init_value (snd it))) items,
           rest)).
Proof.
  intros Hpre Hpost Hex Hvi Hmu Hne Hall.
  pose proof (spec_kws_app pre post Hpre Hpost) as Hk.
  assert (Hstop : spec_stop (join_comma (map item_toks items) ++ ktok SEMI :: rest) = true).
  { destruct items as [|[[ls n] i] q]; [contradiction|]. cbn [map]. rewrite join_comma_app.
    unfold item_toks. cbn [fst snd]. rewrite <- app_assoc. apply P_head_stop. }
  unfold var_stmt_i. rewrite (specs_decode_app pre post b _ Hpre Hpost Hstop).
  rewrite (validate_ns_ok _ Hk Hex Hvi Hmu).
  eapply ev_bind; [now apply decl_list_i_rt|]. apply ev_const.
Qed.
