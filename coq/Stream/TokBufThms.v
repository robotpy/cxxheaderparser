(* Theorems about Stream/TokBuf.v: the refinement of the buffer machine by the
   list of significant tokens (C09 layout invariance), the documentation-comment
   scans (C11), and what the stream shows of a run of raw tokens without NEWLINE,
   where only suffix fusion happens (abs_calm, vfuse_app, vsee_app: for C16). *)
From Coq Require Import ZArith List Bool Lia Permutation.
Import ListNotations.
From CXV Require Import Gen.TokTy Gen.StreamTables Parse.Balanced Stream.TokBuf.
Open Scope N_scope.

(* fill_go, like the fusion of a literal with its suffix, looks two tokens ahead *)
Lemma list_ind2 {A} (P : list A -> Prop) :
  P [] -> (forall x l, P l -> P (tl l) -> P (x :: l)) -> forall l, P l.
Proof.
  intros H0 H2 l. enough (P l /\ P (tl l)) by tauto.
  induction l as [|x l [IHl IHt]]; cbn [tl]; auto.
Qed.

Lemma fill_go_len : forall rw acc line rw' hit,
  fill_go acc rw = (line, rw', hit) -> (length rw' <= pred (length rw))%nat.
Proof.
  induction rw as [|t r IH1 IH2] using list_ind2; intros acc line rw' hit H; cbn [fill_go] in H.
  - inversion H. cbn. lia.
  - cbn [length pred]. destruct (tty t =? T_NEWLINE).
    + destruct acc as [|b acc']; [inversion H; lia|].
      destruct (tty b =? T_BACKSLASH); [|inversion H; lia].
      apply IH1 in H. lia.
    + destruct (memN (tty t) udl_start); [|apply IH1 in H; lia].
      destruct r as [|t2 r2]; [inversion H; cbn; lia|].
      destruct (_ && _).
      * apply IH2 in H. cbn [tl length] in *. lia.
      * apply IH1 in H. lia.
Qed.

(* the logical token stream: all lines the stream will ever buffer *)
Fixpoint fill_all (fuel : nat) (rw : list tok) : list tok :=
  match fuel with
  | O => []
  | S f =>
      match rw with
      | [] => []
      | _ => let '(line, rw', _) := fill_go [] rw in line ++ fill_all f rw'
      end
  end.

Lemma fill_all_fuel : forall f rw, (length rw <= f)%nat ->
  forall g, (length rw <= g)%nat -> fill_all f rw = fill_all g rw.
Proof.
  induction f as [|f IH]; intros rw Hf g Hg.
  - destruct rw; [destruct g; reflexivity|cbn in Hf; lia].
  - destruct rw as [|t r]; [destruct g; reflexivity|].
    destruct g as [|g]; [cbn in Hg; lia|].
    cbn [fill_all]. destruct (fill_go [] (t :: r)) as [[line rw'] hit] eqn:E.
    apply fill_go_len in E. cbn [length pred] in E, Hf, Hg. f_equal. apply IH; lia.
Qed.

Definition logical_raw (rw : list tok) : list tok := fill_all (length rw) rw.
Definition logical (st : ts) : list tok := buf st ++ logical_raw (raw st).

Lemma logical_raw_unfold t r line rw' hit :
  fill_go [] (t :: r) = (line, rw', hit) ->
  logical_raw (t :: r) = line ++ logical_raw rw' /\ (length rw' <= length r)%nat.
Proof.
  intros E. unfold logical_raw. cbn [length fill_all]. rewrite E.
  apply fill_go_len in E. cbn [length pred] in E. split; [|exact E]. f_equal. apply fill_all_fuel; lia.
Qed.

Definition sigs (l : list tok) : list tok := filter is_sig l.

Lemma pop_keep_filter keep : forall b,
  match pop_keep keep b with
  | Some (t, b') => keep t = true /\ filter keep b = t :: filter keep b'
  | None => filter keep b = []
  end.
Proof.
  induction b as [|x r IH]; cbn [pop_keep filter]; [reflexivity|].
  destruct (keep x) eqn:E; [now split|exact IH].
Qed.

Lemma pop_keep_app keep b : forall a, pop_keep keep (a ++ b) =
  match pop_keep keep a with Some (t, a') => Some (t, a' ++ b)%list | None => pop_keep keep b end.
Proof.
  induction a as [|x a IH]; cbn [app pop_keep]; [reflexivity|].
  destruct (keep x); [reflexivity|exact IH].
Qed.

(* line-at-a-time refilling is invisible: the read loop (and dox_loop, below)
   does to the stream what one pass over the whole logical token list does *)
Lemma next_tok_spec keep : forall fuel st o st',
  (length (raw st) < fuel)%nat ->
  next_tok fuel keep st = SOk o st' ->
  match pop_keep keep (logical st) with
  | Some (t, l) => o = Some t /\ logical st' = l
  | None => o = None /\ logical st' = []
  end.
Proof.
  induction fuel as [|f IH]; intros st o st' Hf H; [lia|].
  cbn [next_tok] in H. unfold logical at 1. rewrite pop_keep_app.
  destruct (pop_keep keep (buf st)) as [[t b']|]; [now inversion H|].
  destruct (raw st) as [|t rw] eqn:Er.
  - destruct (rfail st); [discriminate|]. now inversion H.
  - destruct (fill_go [] (t :: rw)) as [[line rw'] hit] eqn:E.
    destruct (hit && rfail st); [discriminate|].
    destruct (logical_raw_unfold _ _ _ _ _ E) as [-> L]. apply IH in H; [exact H|cbn [raw length] in *; lia].
Qed.

(* C09: every client of the stream interface sees only the significant tokens *)

Definition tokview : Type := N * list N.
Definition view (t : tok) : tokview := (tty t, ttext t).
Definition unview (v : tokview) : tok := mkTok (fst v) (snd v) 0 ([], 0%Z).
Definition vsig (v : tokview) : bool := negb (memN (fst v) discard_types).

(* a client: an arbitrary (adaptive) program over token / token_eof_ok,
   token_if / _in_set / _val / _not, token_peek_if, return_token(s).  Predicates
   and continuations see token type and text only (never a location). *)
Inductive client (R : Type) : Type :=
| CRet (r : R)
| CTok (k : option tokview -> client R)
| CIf (p : tokview -> bool) (k : option tokview -> client R)
| CPeek (p : tokview -> bool) (k : bool -> client R)
| CReturn (l : list tokview) (k : client R).
Arguments CRet {R} r. Arguments CTok {R} k. Arguments CIf {R} p k.
Arguments CPeek {R} p k. Arguments CReturn {R} l k.

(* against the concrete buffer machine (None: lexer error, or the client
   pushed back a token of a discard type, which the parser never does) *)
Fixpoint run_c {R} (c : client R) (st : ts) : option R :=
  match c with
  | CRet r => Some r
  | CTok k =>
      match token_eof_ok st with
      | SOk o st' => run_c (k (option_map view o)) st'
      | _ => None
      end
  | CIf p k =>
      match token_if_p (fun t => p (view t)) st with
      | SOk o st' => run_c (k (option_map view o)) st'
      | _ => None
      end
  | CPeek p k =>
      match token_peek_if (fun t => p (view t)) st with
      | SOk b st' => run_c (k b) st'
      | _ => None
      end
  | CReturn l k =>
      if forallb vsig l then run_c k (return_tokens (map unview l) st) else None
  end.

Fixpoint run_a {R} (c : client R) (s : list tokview) : R :=
  match c with
  | CRet r => r
  | CTok k => match s with v :: s' => run_a (k (Some v)) s' | [] => run_a (k None) [] end
  | CIf p k =>
      match s with
      | v :: s' => if p v then run_a (k (Some v)) s' else run_a (k None) s
      | [] => run_a (k None) []
      end
  | CPeek p k => match s with v :: _ => run_a (k (p v)) s | [] => run_a (k false) [] end
  | CReturn l k => run_a k (l ++ s)
  end.

Definition abs (st : ts) : list tokview := map view (sigs (logical st)).

Lemma abs_return_tokens l st : abs (return_tokens l st) = (map view (sigs l) ++ abs st)%list.
Proof.
  unfold abs, sigs, logical, return_tokens. cbn [buf raw].
  now rewrite <- app_assoc, filter_app, map_app.
Qed.

Lemma token_eof_ok_abs st o st' :
  token_eof_ok st = SOk o st' ->
  match o with
  | Some t => abs st = view t :: abs st' /\ abs (push_front t st') = abs st
  | None => abs st = [] /\ abs st' = []
  end.
Proof.
  unfold token_eof_ok, fuel_of. intros H. apply next_tok_spec in H; [|lia].
  pose proof (pop_keep_filter is_sig (logical st)) as Ep.
  destruct (pop_keep is_sig (logical st)) as [[t l]|]; destruct H as [-> H].
  - destruct Ep as [Hk Ep].
    change (push_front t st') with (return_tokens [t] st'). rewrite abs_return_tokens.
    unfold abs, sigs. cbn [filter]. now rewrite Hk, Ep, H.
  - unfold abs, sigs. now rewrite Ep, H.
Qed.

Lemma view_unview l : forallb vsig l = true -> map view (sigs (map unview l)) = l.
Proof.
  induction l as [|[ty tx] l IH]; [reflexivity|]. cbn [forallb]. intros H.
  apply andb_prop in H as [Hv Hl]. unfold sigs. cbn [map filter].
  change (is_sig (unview (ty, tx))) with (vsig (ty, tx)). rewrite Hv.
  cbn [map]. f_equal. now apply IH.
Qed.

Theorem stream_refines_sig_lemma {R} : forall (c : client R) st r,
  run_c c st = Some r -> r = run_a c (abs st).
Proof.
  induction c as [r0|k IH|p k IH|p k IH|l k IH]; intros st r H; cbn [run_c] in H.
  - now inversion H.
  - destruct (token_eof_ok st) as [o st'| | |] eqn:E; try discriminate.
    apply token_eof_ok_abs in E. apply IH in H.
    destruct o as [t|]; destruct E as [E1 E2]; rewrite E1; cbn [run_a option_map].
    + exact H.
    + now rewrite E2 in H.
  - unfold token_if_p in H.
    destruct (token_eof_ok st) as [o st'| | |] eqn:E; try discriminate.
    apply token_eof_ok_abs in E.
    destruct o as [t|]; destruct E as [E1 E2]; rewrite E1; cbn [run_a].
    + destruct (p (view t)); apply IH in H; [exact H|]. now rewrite E2, E1 in H.
    + apply IH in H. now rewrite E2 in H.
  - unfold token_peek_if in H.
    destruct (token_eof_ok st) as [o st'| | |] eqn:E; try discriminate.
    apply token_eof_ok_abs in E.
    destruct o as [t|]; destruct E as [E1 E2]; rewrite E1; cbn [run_a]; apply IH in H.
    + now rewrite E2, E1 in H.
    + now rewrite E2 in H.
  - destruct (forallb vsig l) eqn:El; [|discriminate].
    apply IH in H. now rewrite abs_return_tokens, (view_unview l El) in H.
Qed.

Theorem layout_invariance_lemma {R} (c : client R) st1 st2 r1 r2 :
  abs st1 = abs st2 -> run_c c st1 = Some r1 -> run_c c st2 = Some r2 -> r1 = r2.
Proof.
  intros Ha H1 H2. apply stream_refines_sig_lemma in H1, H2. congruence.
Qed.

Definition is_layout (t : tok) : bool :=
  (tty t =? T_NEWLINE) || (tty t =? T_WHITESPACE) || is_comment t.

Lemma is_layout_not_sig t : is_layout t = negb (is_sig t).
Proof.
  unfold is_layout, is_sig, is_comment, discard_types. rewrite negb_involutive. cbn [memN].
  now destruct (tty t =? T_NEWLINE), (tty t =? T_WHITESPACE), (tty t =? T_COMMENT_SINGLELINE), (tty t =? T_COMMENT_MULTILINE).
Qed.

Fixpoint lay_prefix (l : list tok) : list tok :=
  match l with t :: r => if is_sig t then [] else t :: lay_prefix r | [] => [] end.
Fixpoint lay_rest (l : list tok) : list tok :=
  match l with t :: r => if is_sig t then l else lay_rest r | [] => [] end.

Lemma lay_split l : l = (lay_prefix l ++ lay_rest l)%list.
Proof. induction l as [|t r IH]; cbn; [reflexivity|]. destruct (is_sig t); cbn; [reflexivity|now f_equal]. Qed.

(* the comments collected, and whether the last of them left the newline that ends its line to come *)
Definition sstate : Type := (list tok * bool)%type.
(* SPEC of the comment block: scan the layout tokens; a NEWLINE token that is a
   blank line forgets what was collected, a NEWLINE that merely ends the line of
   a comment (one newline right after a comment that did not include it) does
   not; comment tokens are collected (most recent first) *)
Definition scan_step (s : sstate) (t : tok) : sstate :=
  if tty t =? T_NEWLINE then ((if nl_clears (snd s) t then [] else fst s), false)
  else if is_comment t then (t :: fst s, negb (ends_nl (ttext t)))
  else s.
Definition scan (s : sstate) (l : list tok) : sstate := fold_left scan_step l s.

Lemma scan_step_nl s t : tty t = T_NEWLINE ->
  scan_step s t = ((if nl_clears (snd s) t then [] else fst s), false).
Proof. intros E. unfold scan_step. now rewrite E, N.eqb_refl. Qed.
Lemma scan_step_not_nl s t : tty t <> T_NEWLINE ->
  scan_step s t = if is_comment t then (t :: fst s, negb (ends_nl (ttext t))) else s.
Proof. intros E. unfold scan_step. now destruct (N.eqb_spec (tty t) T_NEWLINE). Qed.
Lemma scan_cons s t l : scan s (t :: l) = scan (scan_step s t) l.
Proof. reflexivity. Qed.

Lemma scan_step_fst s t :
  fst (scan_step s t) =
  if (tty t =? T_NEWLINE) && nl_clears (snd s) t then [] else (filter is_comment [t] ++ fst s)%list.
Proof.
  unfold scan_step, is_comment. cbn [filter].
  destruct (N.eqb_spec (tty t) T_NEWLINE) as [->|E]; cbn [andb].
  - now destruct (nl_clears (snd s) t).
  - now destruct (_ || _).
Qed.

Lemma scan_is_suffix_block : forall l s,
  exists l1 l2, l = (l1 ++ l2)%list /\
    ((l1 = [] /\ fst (scan s l) = (rev (filter is_comment l2) ++ fst s)%list) \/
     ((exists l0 nl, l1 = (l0 ++ [nl])%list /\ tty nl = T_NEWLINE) /\
      fst (scan s l) = rev (filter is_comment l2))).
Proof.
  induction l as [|t r IH]; intros s.
  - exists [], []. split; [reflexivity|]. left. split; reflexivity.
  - rewrite scan_cons. destruct (IH (scan_step s t)) as (l1 & l2 & -> & [[-> H]|[(l0 & nl & -> & Hn) H]]).
    + rewrite scan_step_fst in H. destruct ((tty t =? T_NEWLINE) && nl_clears (snd s) t) eqn:C.
      * exists [t], l2. split; [reflexivity|]. right. rewrite app_nil_r in H. split; [|exact H].
        apply andb_prop in C as [C _]. apply N.eqb_eq in C.
        exists [], t. split; [reflexivity|exact C].
      * exists [], (t :: l2). split; [reflexivity|]. left. split; [reflexivity|].
        rewrite H. cbn [filter]. destruct (is_comment t); [|reflexivity].
        cbn [rev app]. now rewrite <- app_assoc.
    + exists (t :: l0 ++ [nl])%list, l2. split; [reflexivity|]. right. split; [|exact H].
      exists (t :: l0), nl. split; [reflexivity|exact Hn].
Qed.

Lemma dox_scan_spec : forall b cs opn,
  dox_scan cs opn b =
    (fst (scan (cs, opn) (lay_prefix b)), snd (scan (cs, opn) (lay_prefix b)), lay_rest b,
     match lay_rest b with [] => false | _ => true end).
Proof.
  induction b as [|t r IH]; intros cs opn; cbn [dox_scan lay_prefix lay_rest]; [reflexivity|].
  rewrite <- (negb_involutive (is_sig t)), <- is_layout_not_sig. unfold is_layout.
  destruct (N.eqb_spec (tty t) T_NEWLINE) as [E|E]; cbn [orb negb].
  - rewrite IH, scan_cons, (scan_step_nl (cs, opn) t E). reflexivity.
  - destruct (N.eqb_spec (tty t) T_WHITESPACE) as [E2|E2]; cbn [orb negb].
    + rewrite IH, scan_cons, (scan_step_not_nl (cs, opn) t E). unfold is_comment. now rewrite E2.
    + destruct (is_comment t) eqn:Ec; cbn [negb]; [|reflexivity].
      rewrite IH, scan_cons, (scan_step_not_nl (cs, opn) t E), Ec. reflexivity.
Qed.

Lemma lay_rest_sigs l : sigs (lay_rest l) = sigs l.
Proof.
  induction l as [|t r IH]; [reflexivity|]. unfold sigs in *. cbn [lay_rest filter].
  destruct (is_sig t) eqn:E; [cbn [filter]; now rewrite E|exact IH].
Qed.

Lemma dox_scan_app b : forall a cs opn, dox_scan cs opn (a ++ b) =
  let '(cs', opn', a', stop) := dox_scan cs opn a in
  if stop then (cs', opn', (a' ++ b)%list, true) else dox_scan cs' opn' b.
Proof.
  induction a as [|t a IH]; intros cs opn; cbn [app dox_scan]; [reflexivity|].
  destruct (tty t =? T_NEWLINE); [apply IH|].
  destruct (tty t =? T_WHITESPACE); [apply IH|].
  destruct (is_comment t); [apply IH|reflexivity].
Qed.

Lemma dox_loop_scan : forall fuel cs opn st cs' st',
  (length (raw st) < fuel)%nat ->
  dox_loop fuel cs opn st = SOk cs' st' ->
  let '(cs1, _, l, _) := dox_scan cs opn (logical st) in cs' = cs1 /\ logical st' = l.
Proof.
  induction fuel as [|f IH]; intros cs opn st cs' st' Hf H; [lia|].
  cbn [dox_loop] in H. unfold logical at 1. rewrite dox_scan_app.
  destruct (dox_scan cs opn (buf st)) as [[[cs1 opn1] b1] [|]]; [now inversion H|].
  destruct (raw st) as [|t rw] eqn:Er.
  - destruct (rfail st); [discriminate|]. now inversion H.
  - destruct (fill_go [] (t :: rw)) as [[line rw'] hit] eqn:E.
    destruct (hit && rfail st); [discriminate|].
    destruct (logical_raw_unfold _ _ _ _ _ E) as [-> L]. apply IH in H; [exact H|cbn [raw length] in *; lia].
Qed.

Theorem get_doxygen_spec_lemma st o st' :
  get_doxygen st = SOk o st' ->
  o = (match fst (scan ([], false) (lay_prefix (logical st))) with [] => None | cs => extract (rev cs) end) /\
  logical st' = lay_rest (logical st).
Proof.
  unfold get_doxygen, fuel_of. destruct (dox_loop _ [] false st) as [cs st1| | |] eqn:E; try discriminate.
  intros [= <- <-]. apply dox_loop_scan in E; [|lia]. rewrite dox_scan_spec in E. destruct E as [-> ->].
  split; [|reflexivity]. now destruct (fst _).
Qed.

Corollary get_doxygen_abs st o st' : get_doxygen st = SOk o st' -> abs st' = abs st.
Proof.
  intros H. apply get_doxygen_spec_lemma in H as [_ H]. unfold abs. now rewrite H, lay_rest_sigs.
Qed.

Lemma layout_not_sig t : is_layout t = true -> is_sig t = false.
Proof. rewrite is_layout_not_sig. now destruct (is_sig t). Qed.

Definition doxa_post (cs all : list tok) (r : list tok * list tok) : Prop :=
  exists taken dropped,
    fst r = (rev taken ++ cs)%list /\
    Permutation all (snd r ++ taken ++ dropped) /\
    Forall (fun t => is_comment t = true) taken /\
    Forall (fun t => tty t = T_NEWLINE) dropped /\
    sigs (snd r) = sigs all.

Lemma doxa_scan_spec : forall b depth ended cs newb,
  doxa_post cs (rev newb ++ b) (doxa_scan depth ended cs newb b).
Proof.
  assert (Hid : forall cs all, doxa_post cs all (cs, all)).
  { intros cs all. exists [], []. rewrite !app_nil_r. now repeat split. }
  induction b as [|t r IH]; intros depth ended cs newb; cbn [doxa_scan].
  { rewrite app_nil_r. apply Hid. }
  (* E identifies the two spellings of the whole buffer.  With it a branch that stops hands back (cs, all): Hid;
     one that keeps t and goes on is Hgo.  Left are NEWLINE (t dropped) and the doc comment (t taken, IH at t :: cs) *)
  assert (E : (rev (t :: newb) ++ r = rev newb ++ t :: r)%list).
  { cbn [rev]. now rewrite <- app_assoc. }
  pose proof (fun d e => IH d e cs (t :: newb)) as Hgo. rewrite E in Hgo |- *.
  destruct (N.eqb_spec (tty t) T_NEWLINE) as [En|En].
  - exists [], [t]. cbn [fst snd rev app]. repeat split; auto.
    + rewrite <- app_assoc. apply Permutation_app_head. exact (Permutation_cons_append r t).
    + unfold sigs. rewrite !filter_app. cbn [filter]. rewrite layout_not_sig; [reflexivity|]. unfold is_layout. now rewrite En.
  - destruct (tty t =? T_WHITESPACE); [apply Hgo|].
    destruct (is_comment t) eqn:Ec; [destruct (is_doc t)|].
    + destruct (IH depth ended (t :: cs) newb) as (taken & dropped & H1 & H2 & H3 & H4 & H5).
      exists (t :: taken), dropped. cbn [rev app]. rewrite <- app_assoc. repeat split; auto.
      * (* t to the front of the buffer, H2 behind it, t back in at the head of taken *)
        etransitivity; [apply Permutation_sym, Permutation_middle|].
        etransitivity; [apply perm_skip; exact H2|]. apply Permutation_middle.
      * rewrite H5. unfold sigs. rewrite !filter_app. cbn [filter]. rewrite layout_not_sig; [reflexivity|]. unfold is_layout. rewrite Ec. apply orb_true_r.
    + destruct cs; [|apply Hid].
      destruct (ends_nl (ttext t)); [apply Hid|apply Hgo].
    + destruct cs; [|apply Hid].
      destruct (ended || _); [apply Hid|].
      destruct (tty t =? T_LIT_123); [apply Hgo|].
      destruct (tty t =? T_LIT_125); [apply Hgo|].
      destruct (_ && _); apply Hgo.
Qed.

(* is_sig, spelled as the three tests doxa_scan makes before it looks at a token *)
Definition plain_sig (t : tok) : bool :=
  negb (tty t =? T_NEWLINE) && negb (tty t =? T_WHITESPACE) && negb (is_comment t).

Lemma doxa_scan_ws : forall pre depth ended cs newb rest,
  Forall (fun x => tty x = T_WHITESPACE) pre ->
  doxa_scan depth ended cs newb (pre ++ rest) = doxa_scan depth ended cs (rev pre ++ newb) rest.
Proof.
  induction pre as [|w pre IH]; intros depth ended cs newb rest Hpre; [reflexivity|].
  inversion Hpre as [|? ? Hw Hpre']; subst. cbn [app doxa_scan]. rewrite Hw.
  change (T_WHITESPACE =? T_NEWLINE) with false. change (T_WHITESPACE =? T_WHITESPACE) with true.
  rewrite IH by assumption. cbn [rev]. now rewrite <- app_assoc.
Qed.

Lemma doxa_scan_stops_at_block_end pre depth ended newb t post :
  Forall (fun x => tty x = T_WHITESPACE) pre ->
  plain_sig t = true ->
  (ended = true \/ (tty t = T_LIT_125 /\ depth = O)) ->
  doxa_scan depth ended [] newb (pre ++ t :: post) = ([], rev newb ++ pre ++ t :: post).
Proof.
  intros Hpre Ht Hstop. rewrite (doxa_scan_ws pre) by exact Hpre. cbn [doxa_scan]. unfold plain_sig in Ht.
  apply andb_prop in Ht as [Ht Hc]. apply andb_prop in Ht as [Hn Hw].
  apply negb_true_iff in Hn, Hw, Hc. rewrite Hn, Hw, Hc.
  replace (ended || _) with true.
  - cbn [rev]. now rewrite rev_app_distr, rev_involutive, <- !app_assoc.
  - destruct Hstop as [->|[-> ->]]; [reflexivity|symmetry; apply orb_true_r].
Qed.

Lemma get_doxygen_after_none st :
  doxa_scan 0 false [] [] (buf st) = ([], buf st) -> get_doxygen_after st = (None, st).
Proof.
  destruct st as [b rw f]. unfold get_doxygen_after. cbn [buf raw rfail]. intros H.
  destruct b; [reflexivity|]. now rewrite H.
Qed.

Theorem doc_not_carried_across_block_end_lemma st pre t post :
  buf st = (pre ++ t :: post)%list ->
  Forall (fun x => tty x = T_WHITESPACE) pre ->
  tty t = T_LIT_125 ->
  get_doxygen_after st = (None, st).
Proof.
  intros Hb Hpre Ht. apply get_doxygen_after_none. rewrite Hb.
  apply (doxa_scan_stops_at_block_end pre 0 false [] t post Hpre).
  - unfold plain_sig, is_comment. rewrite Ht. reflexivity.
  - right. split; [exact Ht|reflexivity].
Qed.

Theorem doc_not_carried_past_next_statement_lemma st pre semi mid t post :
  buf st = (pre ++ semi :: mid ++ t :: post)%list ->
  Forall (fun x => tty x = T_WHITESPACE) pre ->
  Forall (fun x => tty x = T_WHITESPACE) mid ->
  tty semi = T_LIT_59 ->
  plain_sig t = true ->
  get_doxygen_after st = (None, st).
Proof.
  intros Hb Hpre Hmid Hs Ht. apply get_doxygen_after_none. rewrite Hb.
  rewrite (doxa_scan_ws pre 0 false [] [] _ Hpre).
  (* the ';' at depth 0 sets [ended]; the comparisons of its type are closed *)
  cbn [doxa_scan]. unfold is_comment. rewrite Hs. cbn -[doxa_scan rev app].
  rewrite (doxa_scan_stops_at_block_end mid 0 true _ t post Hmid Ht (or_introl eq_refl)).
  cbn [rev]. now rewrite app_nil_r, rev_involutive, <- app_assoc.
Qed.

Theorem get_doxygen_after_spec_lemma st o st' :
  get_doxygen_after st = (o, st') ->
  raw st' = raw st /\ abs st' = abs st /\
  exists taken dropped,
    Permutation (buf st) (buf st' ++ taken ++ dropped) /\
    o = (match taken with [] => None | _ => extract taken end) /\
    Forall (fun t => is_comment t = true) taken /\
    Forall (fun t => tty t = T_NEWLINE) dropped.
Proof.
  unfold get_doxygen_after. destruct (buf st) as [|b0 b] eqn:Eb.
  - intros H; inversion H; subst. repeat split; auto. exists [], []. rewrite Eb. cbn. repeat split; auto.
  - destruct (doxa_scan_spec (b0 :: b) 0 false [] []) as (taken & dropped & H1 & H2 & H3 & H4 & H5).
    destruct (doxa_scan 0 false [] [] (b0 :: b)) as [cs nb].
    intros H; inversion H; subst. cbn [raw buf].
    cbn [rev app fst snd] in *. rewrite app_nil_r in H1. subst cs.
    split; [reflexivity|]. split.
    + unfold abs, sigs, logical in *. cbn [buf raw]. rewrite Eb, !filter_app, H5. reflexivity.
    + exists taken, dropped. repeat split; auto.
      rewrite rev_involutive. destruct taken as [|x xs]; [reflexivity|].
      destruct (rev (x :: xs)) eqn:Er; [|reflexivity].
      apply (f_equal (@length tok)) in Er. rewrite rev_length in Er. discriminate.
Qed.

Lemma extract_some cs l : extract cs = Some l -> l = filter is_doc cs.
Proof. unfold extract. destruct (filter is_doc cs); [discriminate|]. now intros [= <-]. Qed.

Lemma extract_doc_only_lemma cs l : extract cs = Some l -> Forall (fun t => is_doc t = true) l.
Proof.
  intros H. apply extract_some in H as ->. apply Forall_forall. intros x Hx. now apply filter_In in Hx.
Qed.

Lemma NoDup_app_disjoint {A} (l1 l2 : list A) x : NoDup (l1 ++ l2) -> In x l1 -> ~ In x l2.
Proof.
  induction l1 as [|a l1 IH]; [contradiction|]. cbn [app]. intros Hnd Hin Hbad.
  inversion Hnd as [|? ? Hna Hnd']; subst. destruct Hin as [->|Hin].
  - apply Hna, in_or_app. now right.
  - exact (IH Hnd' Hin Hbad).
Qed.

Theorem doxygen_after_linear st o st' taken_off :
  NoDup (map toff (logical st)) ->
  get_doxygen_after st = (o, st') ->
  forall cs, o = Some cs -> In taken_off (map toff cs) -> ~ In taken_off (map toff (logical st')).
Proof.
  intros Hnd H cs Ho Hin.
  apply get_doxygen_after_spec_lemma in H as (Hr & _ & taken & dropped & Hp & -> & _ & _).
  destruct taken as [|x xs]; [discriminate|]. apply extract_some in Ho as ->.
  (* the tokens taken, those left in the stream and those dropped partition the stream before the call *)
  intros Hbad. apply (NoDup_app_disjoint (map toff (x :: xs)) (map toff (logical st' ++ dropped)) taken_off).
  - rewrite <- map_app. revert Hnd. apply Permutation_NoDup, Permutation_map. unfold logical. rewrite Hr.
    (* R, the raw part, is shared: buf st ++ R ~ (buf st' ++ taken ++ dropped) ++ R by Hp; then taken goes to the
       front and dropped behind R *)
    etransitivity; [apply Permutation_app_tail; exact Hp|].
    rewrite <- !app_assoc. etransitivity; [apply Permutation_app_swap_app|].
    apply Permutation_app_head, Permutation_app_head, Permutation_app_comm.
  - apply in_map_iff in Hin as (t & Et & Ht). apply filter_In in Ht as [Ht _].
    apply in_map_iff. now exists t.
  - rewrite map_app. apply in_or_app. now left.
Qed.

Theorem doxygen_linear st o st' off :
  NoDup (map toff (logical st)) ->
  get_doxygen st = SOk o st' ->
  In off (map toff (lay_prefix (logical st))) -> ~ In off (map toff (logical st')).
Proof.
  intros Hnd H. apply get_doxygen_spec_lemma in H as [_ ->].
  rewrite (lay_split (logical st)), map_app in Hnd. exact (NoDup_app_disjoint _ _ off Hnd).
Qed.

(* A run of raw tokens without NEWLINE is buffered as one line, in which
   nothing happens but the fusion of user-defined-literal suffixes. *)
Definition is_suffix (w : tokview) : bool := (fst w =? T_NAME) && starts_underscore (unview w).
Definition takes_suffix (v w : tokview) : bool := memN (fst v) udl_start && is_suffix w.
Definition fused (v w : tokview) : tokview := view (fuse (unview v) (unview w)).

Fixpoint vfuse (vs : list tokview) : list tokview :=
  match vs with
  | v :: r =>
      match r with
      | w :: r2 => if takes_suffix v w then fused v w :: vfuse r2 else v :: vfuse r
      | [] => [v]
      end
  | [] => []
  end.

Lemma vfuse_cons v w r :
  vfuse (v :: w :: r) = if takes_suffix v w then fused v w :: vfuse r else v :: vfuse (w :: r).
Proof. reflexivity. Qed.

Definition vcalm (v : tokview) : bool := negb (fst v =? T_NEWLINE).

Lemma fill_go_calm : forall rw, forallb vcalm (map view rw) = true ->
  forall acc, exists line,
    fill_go acc rw = (line, [], true) /\ map view line = map view (rev acc) ++ vfuse (map view rw).
Proof.
  induction rw as [|t r IH1 IH2] using list_ind2; intros Hc acc.
  { exists (rev acc). now rewrite app_nil_r. }
  cbn [map forallb] in Hc. apply andb_prop in Hc as [Ht Hr]. apply negb_true_iff in Ht.
  change (fst (view t)) with (tty t) in Ht. cbn [fill_go]. rewrite Ht.
  assert (Push : exists line, fill_go (t :: acc) r = (line, [], true) /\
                   map view line = map view (rev acc) ++ view t :: vfuse (map view r)).
  { destruct (IH1 Hr (t :: acc)) as (line & E & V). exists line. split; [exact E|].
    rewrite V. cbn [rev]. now rewrite map_app, <- app_assoc. }
  destruct r as [|t2 r2].
  - destruct (memN (tty t) udl_start); exact Push.
  - cbn [map]. rewrite vfuse_cons.
    change (takes_suffix (view t) (view t2))
      with (memN (tty t) udl_start && ((tty t2 =? T_NAME) && starts_underscore t2)).
    destruct (memN (tty t) udl_start); [|exact Push]. cbn [andb].
    destruct ((tty t2 =? T_NAME) && starts_underscore t2); [|exact Push].
    cbn [map forallb] in Hr. apply andb_prop in Hr as [_ Hr2].
    destruct (IH2 Hr2 (fuse t t2 :: acc)) as (line & E & V). exists line. split; [exact E|].
    rewrite V. cbn [rev]. now rewrite map_app, <- app_assoc.
Qed.

Lemma view_sigs l : map view (sigs l) = filter vsig (map view l).
Proof.
  unfold sigs. induction l as [|t l IH]; [reflexivity|]. cbn [filter map].
  change (vsig (view t)) with (is_sig t). destruct (is_sig t); cbn [map]; now rewrite IH.
Qed.

Definition vsee (vs : list tokview) : list tokview := filter vsig (vfuse vs).

Theorem abs_calm rw f : forallb vcalm (map view rw) = true -> abs (mkTs [] rw f) = vsee (map view rw).
Proof.
  intros Hc. unfold abs, logical, vsee. cbn [buf raw app]. rewrite view_sigs. f_equal.
  destruct rw as [|t r]; [reflexivity|].
  destruct (fill_go_calm _ Hc []) as (line & E & V).
  rewrite (proj1 (logical_raw_unfold _ _ _ _ _ E)), app_nil_r. exact V.
Qed.

(* two runs do not interact unless the first ends in a literal and the second
   starts with a suffix for it *)
Fixpoint open_end (x : list tokview) : bool :=
  match x with [] => false | [v] => memN (fst v) udl_start | _ :: r => open_end r end.
Definition suffix_start (y : list tokview) : bool := match y with w :: _ => is_suffix w | [] => false end.

Lemma suffix_start_app w z : w <> [] -> suffix_start (w ++ z) = suffix_start w.
Proof. now destruct w. Qed.

Lemma vfuse_app y : forall x, open_end x && suffix_start y = false ->
  vfuse (x ++ y) = vfuse x ++ vfuse y.
Proof.
  induction x as [|v x IH1 IH2] using list_ind2; intros H; [reflexivity|].
  destruct x as [|w x'].
  - destruct y as [|w y']; [reflexivity|]. cbn [app]. rewrite vfuse_cons.
    change (takes_suffix v w) with (open_end [v] && suffix_start (w :: y')). now rewrite H.
  - cbn [app tl] in *. rewrite !vfuse_cons. destruct (takes_suffix v w).
    + rewrite IH2; [reflexivity|]. destruct x'; [reflexivity|exact H].
    + rewrite IH1; [reflexivity|exact H].
Qed.

Corollary vsee_app x y : open_end x && suffix_start y = false -> vsee (x ++ y) = vsee x ++ vsee y.
Proof. intros H. unfold vsee. now rewrite (vfuse_app y x H), filter_app. Qed.
