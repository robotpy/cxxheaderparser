(* Whole bodies: the statement loop of CxxParser.parse composed with the statement
   models.  The loop dispatches on the type of the first token of a statement
   through the REGENERATED table of Gen/TopLoop.v (tu_table; a type that is not in
   it goes to _parse_declarations); this file puts the handlers' models behind it:

   class body:     access specifiers (_process_access_specifier: keyword ':'), the empty
                   statement, friend declarations (Parse/FriendStmt.v), static_assert (the
                   translated _consume_static_assert of Gen/Dispatch.v) and, for everything
                   that goes to _parse_declarations, the member-statement models
                   (MemberStmt, ConvOp, OperatorMember), up to the closing brace;
   namespace body: the empty statement, typedef (the translated _parse_typedef handing on
                   to the typedef statement model), static_assert, and the declaration
                   models (DeclStmt, OperatorFn, MethodImpl), up to a closing brace or the
                   end of input.
   Statement kinds without a model here (template, using, enum / class definitions,
   namespaces, extern, directives, attributes, and every typedef statement inside a
   class body) are outside the model (code 4).

   The declaration models are partial views of ONE function (_parse_declarations):
   each answers code 4 outside its own vocabulary and the composition takes the
   first that does not.  Tied to the code by the differential runs of
   harness/props/c03.py / c12.py (whole bodies through parse_string with a recording
   visitor). *)
From Coq Require Import NArith List.
Import ListNotations.
From CXV Require Import Gen.TokTy Gen.TopLoop Parse.Balanced Parse.Declarator Parse.DeclSpec Parse.DeclThms Parse.Specs Parse.Init Parse.MethodTail
  Parse.DeclStmt Parse.MemberStmt Parse.ConvOp Parse.OperatorMember Parse.OperatorFn Parse.MethodImpl Parse.FriendStmt.
From CXV Require Parse.DispatchLang Gen.Dispatch.
Open Scope N_scope.

(* the first model that does not answer "outside my vocabulary" *)
Definition orelse {A} (a b : dres A) : dres A := match a with DErr 4 => b | _ => a end.

Inductive citem :=
| CMembers (m : mods) (l : list mentry)
| CConv (c : convop)
| COp (o : opmember)
| CFriend (f : friend_entry).

(* (a statement of specifiers followed by `operator` is a conversion operator: _parse_type is called with operator_ok and
   stops there without a type name; the specifier model of the other two views rejects that shape) *)
Definition member_decl (n fuel : nat) (cls dcls : N) (toks : list tk) : dres (citem * list tk) :=
  orelse (match conv_stmt fuel toks with DOk (c, r) => DOk (CConv c, r) | DErr e => DErr e end)
 (orelse (match member_stmt n fuel cls dcls toks with DOk (m, l, r) => DOk (CMembers m l, r) | DErr e => DErr e end)
         (match op_member_stmt fuel toks with DOk (o, r) => DOk (COp o, r) | DErr e => DErr e end)).

Definition COLONb := T_LIT_58.

(* [acc]: the access in force (the token type of the last access specifier, or of the class-key default) *)
Fixpoint class_body (k n fuel : nat) (cls dcls : N) (acc : N) (toks : list tk) {struct k} : dres (list (N * citem) * list tk) :=
  match k with
  | O => DErr 9
  | S k' =>
      match toks with
      | [] => DOk ([], [])                                  (* end of input: parse() returns, the block stays open *)
      | t :: r =>
          match assocN (kty t) tu_table with
          | Some h =>
              if h =? H_on_block_end then DOk ([], toks)
              else if h =? H_process_access_specifier then
                match r with
                | c :: r' => if is COLONb c then class_body k' n fuel cls dcls (kty t) r' else DErr 1
                | [] => DErr 2
                end
              else if h =? 0 then class_body k' n fuel cls dcls acc r
              else if h =? H_parse_friend_decl then
                match friend_stmt fuel r with
                | DErr e => DErr e
                | DOk (f, r') =>
                    match class_body k' n fuel cls dcls acc r' with
                    | DOk (l, rr) => DOk ((acc, CFriend f) :: l, rr)
                    | DErr e => DErr e
                    end
                end
              else if h =? H_consume_static_assert then
                match DispatchLang.run Dispatch.prog_consume_static_assert true t r with
                | DispatchLang.ODone r' => class_body k' n fuel cls dcls acc r'
                | DispatchLang.OErr e => DErr e
                | _ => DErr 3
                end
              else DErr 4
          | None =>
              match member_decl n fuel cls dcls toks with
              | DErr e => DErr e
              | DOk (it, r') =>
                  match class_body k' n fuel cls dcls acc r' with
                  | DOk (l, rr) => DOk ((acc, it) :: l, rr)
                  | DErr e => DErr e
                  end
              end
          end
      end
  end.

Inductive nitem :=
| NDecls (m : mods) (l : list entry)
| NOpFn (o : opfn)
| NMethodImpl (mi : mimpl)
| NTypedefs (l : list entry).

Definition ns_decl (n fuel : nat) (toks : list tk) : dres (nitem * list tk) :=
  orelse (match decl_stmt n fuel toks with DOk (m, l, r) => DOk (NDecls m l, r) | DErr e => DErr e end)
 (orelse (match op_fn_stmt fuel toks with DOk (o, r) => DOk (NOpFn o, r) | DErr e => DErr e end)
         (match method_impl_stmt fuel toks with DOk (mi, r) => DOk (NMethodImpl mi, r) | DErr e => DErr e end)).

Fixpoint ns_body (k n fuel : nat) (toks : list tk) {struct k} : dres (list nitem * list tk) :=
  match k with
  | O => DErr 9
  | S k' =>
      match toks with
      | [] => DOk ([], [])
      | t :: r =>
          match assocN (kty t) tu_table with
          | Some h =>
              if h =? H_on_block_end then DOk ([], toks)
              else if h =? 0 then ns_body k' n fuel r
              else if h =? H_parse_typedef then
                (* the translated handler: the declaration parser starts behind the keyword, flagged is_typedef *)
                match DispatchLang.run Dispatch.prog_parse_typedef false t r with
                | DispatchLang.OCall DispatchLang.F_declarations [DispatchLang.RTok (Some x); DispatchLang.RDox]
                                     [(1, DispatchLang.RBool true)] r1 =>
                    match typedef_decl_stmt n fuel (x :: r1) with
                    | DErr e => DErr e
                    | DOk (l, r') =>
                        match ns_body k' n fuel r' with
                        | DOk (ls, rr) => DOk (NTypedefs l :: ls, rr)
                        | DErr e => DErr e
                        end
                    end
                | DispatchLang.OErr e => DErr e
                | _ => DErr 3
                end
              else if h =? H_consume_static_assert then
                match DispatchLang.run Dispatch.prog_consume_static_assert false t r with
                | DispatchLang.ODone r' => ns_body k' n fuel r'
                | DispatchLang.OErr e => DErr e
                | _ => DErr 3
                end
              else DErr 4
          | None =>
              match ns_decl n fuel toks with
              | DErr e => DErr e
              | DOk (it, r') =>
                  match ns_body k' n fuel r' with
                  | DOk (l, rr) => DOk (it :: l, rr)
                  | DErr e => DErr e
                  end
              end
          end
      end
  end.

Definition is_decl_head (t : tk) : Prop := assocN (kty t) tu_table = None.

(* a written declaration statement (any of the modelled kinds), abstractly *)
Definition ns_stmt_ok (n : nat) (toks : list tk) (it : nitem) : Prop :=
  (exists t r, toks = t :: r /\ is_decl_head t) /\
  forall rest, ev (fun f => ns_decl n f (toks ++ rest)) (DOk (it, rest)).

Definition stop_tok (t : tk) : Prop := assocN (kty t) tu_table = Some H_on_block_end.

(* a sequence of such statements followed by a closing brace: exactly their items, in order, and the brace is left *)
Theorem ns_body_sequence n (stmts : list (list tk * nitem)) stop rest :
  Forall (fun p => ns_stmt_ok n (fst p) (snd p)) stmts -> stop_tok stop ->
  ev (fun f => ns_body (S (length stmts)) n f (concat (map fst stmts) ++ stop :: rest))
     (DOk (map snd stmts, stop :: rest)).
Proof.
  intros Hall Hstop. induction Hall as [|[toks it] q [(t & r & E & Hh) Hdec] Hq IH].
  - apply ev_always. intros f. cbn [map concat app length ns_body]. now rewrite Hstop, N.eqb_refl.
  - cbn [fst snd] in *. subst toks. cbn [map concat fst snd length]. rewrite <- app_assoc. set (k := S (length q)) in *.
    apply (ev_with (Hdec (concat (map fst q) ++ stop :: rest))), (ev_with IH), ev_always.
    intros f H2 H1. cbn [app] in *. cbn [ns_body]. now rewrite Hh, H1, H2.
Qed.

(* C12 at the level of the model: the body of A followed by B is the body of A followed by the body of B -- nothing of a
   statement reaches the next one *)
Corollary ns_body_concatenation n A B stop rest :
  Forall (fun p => ns_stmt_ok n (fst p) (snd p)) A -> Forall (fun p => ns_stmt_ok n (fst p) (snd p)) B -> stop_tok stop ->
  ev (fun f => ns_body (S (length (A ++ B))) n f (concat (map fst A) ++ concat (map fst B) ++ stop :: rest))
     (DOk (map snd A ++ map snd B, stop :: rest)).
Proof.
  intros HA HB Hs.
  pose proof (ns_body_sequence n (A ++ B) stop rest (proj2 (Forall_app _ _ _) (conj HA HB)) Hs) as H.
  rewrite map_app, concat_app, map_app in H. rewrite <- app_assoc in H. exact H.
Qed.

Inductive celem :=
| CEAccess (kw : tk)                       (* public: / private: / protected: *)
| CEEmpty
| CEStmt (toks : list tk) (it : citem).

Definition celem_toks (e : celem) : list tk :=
  match e with
  | CEAccess kw => [kw; ktok COLONb]
  | CEEmpty => [ktok SEMI]
  | CEStmt toks _ => toks
  end.

Definition celem_ok (n : nat) (cls dcls : N) (e : celem) : Prop :=
  match e with
  | CEAccess kw => assocN (kty kw) tu_table = Some H_process_access_specifier
  | CEEmpty => True
  | CEStmt toks it =>
      (exists t r, toks = t :: r /\ is_decl_head t) /\
      forall rest, ev (fun f => member_decl n f cls dcls (toks ++ rest)) (DOk (it, rest))
  end.

Fixpoint with_access (acc : N) (l : list celem) : list (N * citem) :=
  match l with
  | [] => []
  | CEAccess kw :: r => with_access (kty kw) r
  | CEEmpty :: r => with_access acc r
  | CEStmt _ it :: r => (acc, it) :: with_access acc r
  end.

(* every member statement of a class body is reported once, in order, with the access in force where it is written: the
   class-key default until the first access specifier, then the most recent one *)
Theorem class_body_sequence n cls dcls (elems : list celem) acc stop rest :
  Forall (celem_ok n cls dcls) elems -> stop_tok stop ->
  ev (fun f => class_body (S (length elems)) n f cls dcls acc (concat (map celem_toks elems) ++ stop :: rest))
     (DOk (with_access acc elems, stop :: rest)).
Proof.
  intros Hall Hstop. revert acc. induction Hall as [|e q He Hq IH]; intros acc.
  - apply ev_always. intros f. cbn [map concat app length class_body]. now rewrite Hstop, N.eqb_refl.
  - cbn [map concat length]. rewrite <- app_assoc. set (k := S (length q)) in *.
    destruct e as [kw| |toks it]; cbn [celem_toks celem_ok with_access] in *.
    + apply (ev_with (IH (kty kw))), ev_always. intros f H2. cbn [app class_body]. rewrite He. exact H2.
    + exact (IH acc).
    + destruct He as [(t & r & -> & Hh) Hdec].
      apply (ev_with (Hdec (concat (map celem_toks q) ++ stop :: rest))), (ev_with (IH acc)), ev_always.
      intros f H2 H1. cbn [app] in *. cbn [class_body]. now rewrite Hh, H1, H2.
Qed.

(* specifier keywords followed by a type name do not have the shape `spec* operator`: the conversion-operator view
   answers "outside" *)
Lemma conv_stmt_outside f ks b X : forallb spec_kw ks = true -> conv_stmt f (kw_toks ks ++ nm_tok b :: X) = DErr 4.
Proof.
  intros Hk. unfold conv_stmt. rewrite lead_specs_over by exact Hk. destruct (has T_extern ks); [reflexivity|].
  unfold nm_tok. destruct (apply_kws ks mods0) as [c v ce ex il st xp vi mu]. destruct (b =? 0); reflexivity.
Qed.

Lemma stmt_head_is_hd pre b X :
  is_decl_head (hd (nm_tok b) (kw_toks pre)) -> exists t r, kw_toks pre ++ nm_tok b :: X = t :: r /\ is_decl_head t.
Proof. intros Hh. destruct pre as [|k q]; cbn [kw_toks map app hd] in *; eexists; eexists; (split; [reflexivity|exact Hh]). Qed.

Lemma member_stmt_is_elem cls dcls pre post b items last e :
  forallb spec_kw pre = true -> forallb spec_kw post = true -> has T_extern (pre ++ post) = false ->
  Forall mditem_ok items -> mditem_ok last -> mlast_ok last e ->
  is_decl_head (hd (nm_tok b) (kw_toks pre)) ->
  let m := apply_kws (pre ++ post) mods0 in
  let bt := TBase b (m_const m) (m_volatile m) in
  celem_ok (S (length items)) cls dcls
    (CEStmt (kw_toks pre ++ nm_tok b :: kw_toks post ++ mitems_toks items last e)
            (CMembers m (map (mditem_entry bt) items ++ [mlast_entry bt last e]))).
Proof.
  intros Hpre Hpost Hex Hall Hlast Hle Hh m bt. cbn [celem_ok]. split.
  - exact (stmt_head_is_hd pre b _ Hh).
  - intros rest.
    apply (ev_with (member_stmt_roundtrip cls dcls pre post b items last e rest Hpre Hpost Hex Hall Hlast Hle)), ev_always.
    intros f H1. unfold member_decl.
    rewrite <- app_assoc. cbn [app]. rewrite <- app_assoc.
    rewrite H1, conv_stmt_outside by exact Hpre. reflexivity.
Qed.

Lemma decl_stmt_is_stmt pre post b items last le :
  forallb spec_kw pre = true -> forallb spec_kw post = true ->
  has T_explicit (pre ++ post) = false -> has T_virtual (pre ++ post) = false -> has T_mutable (pre ++ post) = false ->
  Forall ditem_ok items -> ditem_ok last -> last_ok last le ->
  is_decl_head (hd (nm_tok b) (kw_toks pre)) ->
  let m := apply_kws (pre ++ post) mods0 in
  let bt := TBase b (m_const m) (m_volatile m) in
  ns_stmt_ok (S (length items))
    (kw_toks pre ++ nm_tok b :: kw_toks post ++ items_toks items last le)
    (NDecls m (map (ditem_entry bt) items ++ [last_entry bt last le])).
Proof.
  intros Hpre Hpost Hex Hvi Hmu Hall Hlast Hle Hh m bt. split.
  - exact (stmt_head_is_hd pre b _ Hh).
  - intros rest.
    apply (ev_with (decl_stmt_roundtrip pre post b items last le rest Hpre Hpost Hex Hvi Hmu Hall Hlast Hle)), ev_always.
    intros f H1. unfold ns_decl.
    rewrite <- app_assoc. cbn [app]. rewrite <- app_assoc.
    now rewrite H1.
Qed.

(* `int a ; private : static Foo * p = 1 , m ( ) const ; public : ; Bar q ; }` in struct Cls (ids 5 / 6), default access public *)
Example class_body_run :
  class_body 8 3 80 5 6 T_public
    ([mkTk T_NAME 7; mkTk T_NAME 1; ktok SEMI; ktok T_private; ktok COLONb] ++
     kw_toks [T_static] ++ nm_tok 8 :: mitems_toks [MIField [LPtr false false] 2 None (InitEq [mkTk 3 9])] (MIMethod [] [] false 3 [MqConst]) MeDecl ++
     [ktok T_public; ktok COLONb; ktok SEMI; mkTk T_NAME 9; mkTk T_NAME 4; ktok SEMI; ktok T_LIT_125; ktok SEMI])
  = DOk ([(T_public, CMembers mods0 [MField (Some 1) (TBase 7 false false) None None]);
          (T_private, CMembers (mkMods false false false false false true false false false)
                        [MField (Some 2) (TPtr (TBase 8 false false) false false) None (Some [mkTk 3 9]);
                         MMethod 3 (Some (TBase 8 false false)) [] false false false (mkMT true false false false 0 None None false false false false)]);
          (T_public, CMembers mods0 [MField (Some 4) (TBase 9 false false) None None])],
         [ktok T_LIT_125; ktok SEMI]).
Proof. vm_compute. reflexivity. Qed.
