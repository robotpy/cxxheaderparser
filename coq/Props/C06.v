(* C06 -- Every input ends in a result or a CxxParseError that says where. *)
From Coq Require Import NArith ZArith List Bool.
Import ListNotations.
From CXV Require Import Gen.TokTy Gen.ParserTables Gen.Facts Base.Regex Base.RegexThms Gen.LexRules
  Lex.PlyLoop Lex.LexThms Parse.Balanced Parse.BlocksSM Parse.BlocksSpec Parse.BlocksThms.
From CXV Require Import Parse.Specs.
From CXV Require Parse.BalancedThms Parse.Declarator Parse.DispatchLang Gen.Dispatch Parse.DispatchExternThms Parse.DispatchFriendThms.
Open Scope N_scope.

(* the lexer never gets stuck: every code-point string yields tokens or a located error *)
Theorem lex_total : forall file s, snd (lex file s) <> OutOfFuel.
Proof. exact LexThms.lex_total. Qed.

(* a lexical error names the file and, when no #line re-bases it, a line that
   exists in the input: 1 + newlines of the text lexed before the offending text *)
Theorem lex_error_line_exists :
  forall file s ps k loc t,
    lex file s = (ps, Failed k loc t) -> no_rebase ps ->
    fst loc = file /\ exists rest, s = all_text ps ++ rest /\
      snd loc = Z.of_N (1 + count_nl (all_text ps)).
Proof. exact LexThms.lex_error_line_exists. Qed.

(* illegal characters: a character that starts no rule, is no literal and is
   not ignored is rejected at the current location whatever precedes or follows *)
Theorem illegal_char_rejected :
  forall st c s',
    forallb (fun ra => negb (firstc (fst ra) c)) rules = true ->
    assoc_chr c literal_chars = None ->
    in_ranges c (map (fun x => (x, x)) lexignore) = false ->
    lex_step st c s' = SFail 0 (loc_of st) (c :: s').
Proof. exact LexThms.illegal_char_rejected. Qed.

(* unprocessed preprocessor lines: a '#' is a #pragma / #include token, a
   dropped '#line N "f"' / '#warning', or an error - never anything else *)
Theorem hash_is_directive_or_error :
  forall st s',
    match lex_step st 35 s' with
    | SPiece (PTok ty _ _ _) _ _ => ty = T_PRAGMA_DIRECTIVE \/ ty = T_INCLUDE_DIRECTIVE
    | SPiece (PDrop t) _ _ => parse_line_directive t <> None \/ starts_with str_warning t = true
    | SPiece (PIgn _) _ _ => False
    | SFail k _ _ => True
    end.
Proof. exact LexThms.hash_is_directive_or_error. Qed.

(* mismatched brackets are rejected (outside the '<' '>' tolerance) *)
Theorem mismatch_rejected :
  forall (T : Type) (ty : T -> N) t r expected st acc,
    memN (ty t) end_balanced_tokens = true -> ty t <> expected -> ty t <> GT -> expected <> GT ->
    consume ty (expected :: st) acc (t :: r) = ErrUnexpected (ty t).
Proof. exact BalancedThms.mismatch_rejected. Qed.

(* a closing bracket at depth 0 of an unparsed value (initialiser, default
   argument, enumerator value, ...) that is neither one of the value's
   terminators nor the tolerant '>' is rejected *)
Theorem stray_closer_in_value_rejected :
  forall (T : Type) (ty : T -> N) terms f acc t r,
    memN (ty t) terms = false -> memN (ty t) end_balanced_tokens = true -> ty t <> GT ->
    assocN (ty t) balanced_token_map = None ->
    value_until ty (S f) terms acc (t :: r) = ErrUnexpected (ty t).
Proof. intros T ty terms f acc t r Hm Hc Hg _. now apply BalancedThms.stray_closer_in_value_rejected_lemma. Qed.

(* specifiers where they are not allowed: a declaration kind that takes no
   variable specifiers rejects mutable, one that takes no method specifiers
   rejects explicit / virtual, and one that takes neither (typedefs, parameters,
   aliases) rejects constexpr / extern / inline / static as well *)
Theorem misplaced_specifiers_rejected : forall var_ok meth_ok m,
  validate var_ok meth_ok m =
    (implb (m_mutable m) var_ok) && (implb (m_explicit m || m_virtual m) meth_ok)
    && (implb (m_constexpr m || m_extern m || m_inline m || m_static m) (var_ok || meth_ok)).
Proof. exact validate_spec. Qed.

(* a stray closing brace at the root and an access specifier outside a class
   stop the machine with an error, after which nothing is delivered *)
Theorem stray_close_rejected :
  forall skip s f, sst s = Running -> scur s = [f] -> sst (fst (sstep skip s EvClose)) = ErrRootPop.
Proof. exact BlocksThms.stray_close_rejected. Qed.

Theorem access_outside_class_rejected :
  forall skip s f rest a, sst s = Running -> scur s = f :: rest -> fkind f <> KClass ->
    sst (fst (sstep skip s (EvAccess a))) = ErrAccessOutsideClass.
Proof. exact BlocksThms.access_outside_class_rejected. Qed.

Theorem error_is_final :
  forall skip s evs, sst s <> Running -> sfinal skip s evs = s /\ sem skip s evs = [].
Proof. exact BlocksThms.error_is_final. Qed.

(* the wrapper of CxxParser.parse (AST facts recomputed on every run): the try
   covers the whole loop, `except Exception as e` re-raises only in verbose
   mode and otherwise raises CxxParseError(msg) from e with the two message
   shapes "file:line: parse error evaluating ..." / "file: parse error" *)
Theorem wrapper_total :
  fact_parse_try_covers_loop && fact_handler_catches_Exception_and_chains && fact_verbose_only_reraises = true.
Proof. exact (eq_refl true). Qed.

Print Assumptions lex_total.
Print Assumptions lex_error_line_exists.
Print Assumptions illegal_char_rejected.
Print Assumptions hash_is_directive_or_error.
Print Assumptions mismatch_rejected.
Print Assumptions stray_closer_in_value_rejected.
Print Assumptions misplaced_specifiers_rejected.
Print Assumptions stray_close_rejected.
Print Assumptions access_outside_class_rejected.
Print Assumptions error_is_final.
Print Assumptions wrapper_total.

(* class-only constructs outside a class, and what a class may not contain -- on the handlers as translated
   (Gen/Dispatch.v, regenerated): `friend` outside a class body is a parse error whatever follows it; a linkage
   specification (`extern "C" ...`) or an `extern template` inside a class body is a parse error *)
Theorem friend_outside_a_class_rejected : forall kw R,
  DispatchLang.run Dispatch.prog_parse_friend_decl false kw R = DispatchLang.OErr 1.
Proof. exact DispatchFriendThms.friend_outside_class_rejected. Qed.
Theorem linkage_specification_in_a_class_rejected : forall kw x R,
  Declarator.kty x = T_STRING_LITERAL \/ Declarator.kty x = T_template ->
  DispatchLang.run Dispatch.prog_parse_extern true kw (x :: R) = DispatchLang.OErr 1.
Proof. exact DispatchExternThms.extern_block_in_class_rejected. Qed.
Print Assumptions friend_outside_a_class_rejected.
Print Assumptions linkage_specification_in_a_class_rejected.

(* non-vacuity: '$', '@' and '`' meet the premises of illegal_char_rejected *)
Example c06_nonvacuous :
  forallb (fun c => forallb (fun ra => negb (firstc (fst ra) c)) rules
                    && match assoc_chr c literal_chars with None => true | _ => false end
                    && negb (in_ranges c (map (fun x => (x, x)) lexignore))) [36; 64; 96] = true.
Proof. vm_compute. reflexivity. Qed.
