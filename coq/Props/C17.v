(* C17 -- Formatted types parse back to the same type. *)
From Coq Require Import NArith List.
Import ListNotations.
From CXV Require Import Parse.Declarator Parse.DeclSpec Parse.DeclThms Parse.DeclPins.
Open Scope N_scope.

(* D / decl_toks / params_toks are the token-level mirror of types.py
   _format_declarator, format_decl(name), the format() of an argument object and the argument
   list of FunctionType (checked against the real formatters on every run:
   lexing the formatted string gives these tokens). *)

Theorem format_decl_parses_back : forall t n rest,
  wf t -> obj_ty t -> follow_ok rest = true ->
  ev (fun f => parse_var f (decl_toks t (Some n) ++ rest)) (DOk (n, t, rest)).
Proof. exact var_roundtrip. Qed.

(* format() -- the type-id, no name -- and the format() of an argument object parse back in
   parameter position *)
Theorem format_parses_back_as_parameter : forall t nm rest,
  wf t -> kind_of t <> KFn -> follow_ok rest = true ->
  ev (fun f => param f (decl_toks t nm ++ rest)) (DOk ((t, nm), rest)).
Proof. exact param_roundtrip. Qed.

Theorem format_parameters_parse_back : forall ps va rest,
  Forall (fun p => wf (fst p) /\ obj_ty (fst p)) ps ->
  ev (fun f => params f (params_toks ps va ++ ktok RP :: rest)) (DOk (ps, va, rest)).
Proof. exact params_roundtrip. Qed.

(* the formatter's parenthesisation rule, stated on its own: the text built
   around [core] for the type t is the reading-order text of t's layers *)
Theorem formatter_is_inside_out : forall t outer core,
  D t (P outer core) (starts_pfx outer) = P (layers t ++ outer) core.
Proof. exact DP_eq. Qed.

(* format() parses back in alias position (function types excepted: known finding F26b) *)
Theorem format_parses_back_as_alias : forall t rest,
  wf t -> kind_of t <> KFn -> follow_ok rest = true ->
  ev (fun f => alias_type f (decl_toks t None ++ rest)) (DOk (t, rest)).
Proof. exact alias_roundtrip. Qed.

(* the code the model mirrors is the pinned one, and the token sets it tests
   the stream for are the sets the model hard-codes (regenerated on every run) *)
Theorem parser_side_is_the_modelled_one : decl_sets_ok = true.
Proof. exact decl_sets_ok_true. Qed.

Print Assumptions format_parses_back_as_alias.
Print Assumptions parser_side_is_the_modelled_one.
Print Assumptions format_decl_parses_back.
Print Assumptions format_parses_back_as_parameter.
Print Assumptions format_parameters_parse_back.
Print Assumptions formatter_is_inside_out.

Example c17_nonvacuous :
  parse_var 40 (decl_toks ex_ty (Some 1) ++ [ktok SEMI]) = DOk (1, ex_ty, [ktok SEMI]).
Proof. exact ex_runs. Qed.
