(* Hand-written mirror of how CxxParser._parse_declarations and _parse_decl put
   one declaration statement together at namespace scope (not a friend, no
   template header; a `typedef` statement goes through the same loop with the
   flag [td] set: typedef_decl_stmt): specifiers and base type (_parse_type),
   the validate call, then for every declarator of the statement
     - the pointer / reference part (_parse_cv_ptr),
     - a leading parenthesis that is not a declarator group: its inner tokens
       are re-injected once (`int (x);`, `void (f(int));`),
     - the name,
     - '(' behind the name: a FUNCTION (parameters, _parse_fn_end); the
       statement is over when it has a body, else the loop goes on,
     - anything else: a VARIABLE (_parse_field: array suffix, no bit-field
       outside a class, initialiser; `mutable` makes the Variable
       constructor fail),
   and ',' / ';' between and behind declarators.  One statement may mix
   variables and function declarations (`int a, f(int), *b = 0;`).
   Outside the model (code 4): qualified / templated / operator names, msvc
   calling conventions, abbreviated templates (`T auto`), deduction guides,
   trailing return types, requires-clauses, and whatever the sub-models
   (Specs, Declarator, FnTail, Init) leave out.
   Tied to the code by the differential run of harness/props/c01.py
   (extracted decl_stmt vs parse_string with a recording visitor). *)
From Coq Require Import NArith List Bool.
Import ListNotations.
From CXV Require Import Gen.TokTy Gen.ParserTables Parse.Balanced Parse.BalancedThms Parse.Declarator Parse.DeclSpec
  Parse.DeclThms Parse.EnumList Parse.Specs Parse.FnTail Parse.Init Parse.Members.
Open Scope N_scope.

Inductive entry :=
| EVar (nm : N) (t : ty) (iv : option (list tk))
| EFn (nm : N) (rt : ty) (ps : list (ty * option N)) (va : bool) (tl : tail).

Definition LT := T_LIT_60.

(* `tok = self.lex.token_if("(")` at the head of _parse_decl, when the type is
   not a constructor name: the group is consumed; an '->' behind it makes a
   deduction guide (outside the model), otherwise toks[1:-1] are returned *)
Definition strip_group (r1 : list tk) : dres (list tk) :=
  match r1 with
  | t :: r2 =>
      if is LP t then
        lift (consume kty [RP] [t] r2) (fun grp r' =>
          match r' with
          | a :: _ => if is T_ARROW a then DErr 4 else DOk (middle grp ++ r')
          | [] => DOk (middle grp ++ r')
          end)
      else DOk r1
  | [] => DOk r1
  end.

(* _parse_field at namespace scope, behind the name; [td]: the statement is a typedef (no initialiser, a Typedef is built) *)
Definition field_part (fuel : nat) (td mu : bool) (d : ty) (nm : N) (r2 : list tk) : dres (entry * bool * list tk) :=
  let arr := match r2 with
             | a :: r3 => if is LB a then arrtype fuel d a r3 else DOk (d, r2)
             | [] => DOk (d, r2)
             end in
  match arr with
  | DErr e => DErr e
  | DOk (d1, r4) =>
      match r4 with
      | c :: _ => if is COLON c then DErr 1 else
          match init_part td r4 with
          | DErr e => DErr e
          | DOk (iv, r5) => if td then DOk (EVar nm d1 iv, false, r5) else if mu then DErr 3 else DOk (EVar nm d1 iv, false, r5)
          end
      | [] =>
          match init_part td r4 with
          | DErr e => DErr e
          | DOk (iv, r5) => if td then DOk (EVar nm d1 iv, false, r5) else if mu then DErr 3 else DOk (EVar nm d1 iv, false, r5)
          end
      end
  end.

(* _parse_function at namespace scope for a one-segment name, behind the '('; in a typedef a FunctionType is built, a body
   is an error and the statement always goes on *)
Definition fn_part (fuel : nat) (td : bool) (d : ty) (nm : N) (r3 : list tk) : dres (entry * bool * list tk) :=
  match params fuel r3 with
  | DErr e => DErr e
  | DOk (ps, va, r4) =>
      match fn_tail r4 with
      | DErr e => DErr e
      | DOk (tl, r5) =>
          if td then (if t_body tl then DErr 3 else DOk (EFn nm d ps va tl, false, r5))
          else DOk (EFn nm d ps va tl, t_body tl, r5)
      end
  end.

(* one call of _parse_decl: the entry, whether it ended the statement, the rest *)
Definition one_decl (fuel : nat) (td mu : bool) (b : ty) (toks : list tk) : dres (entry * bool * list tk) :=
  match cvptr fuel b toks with
  | DErr e => DErr e
  | DOk (d, r1) =>
      if is_fn d then DErr 3
      else
        match strip_group r1 with
        | DErr e => DErr e
        | DOk r1' =>
            match r1' with
            | t :: r2 =>
                if is T_NAME t then
                  match r2 with
                  | a :: r3 =>
                      if is LP a then fn_part fuel td d (kval t) r3
                      else if is T_DBL_COLON a || is LT a then DErr 4
                      else field_part fuel td mu d (kval t) r2
                  | [] => field_part fuel td mu d (kval t) r2
                  end
                else if is LP t then DErr 1                                  (* '(' without a name *)
                else if memN (kty t) pqname_start_tokens then DErr 4         (* other names: outside the model *)
                else DErr 3                                                  (* variables must have names *)
            | [] => DErr 3
            end
        end
  end.

(* the loop of _parse_declarations; [n] bounds the number of declarators *)
Fixpoint decl_items (n : nat) (fuel : nat) (td mu : bool) (b : ty) (toks : list tk) : dres (list entry * list tk) :=
  match n with
  | O => DErr 9
  | S n' =>
      match one_decl fuel td mu b toks with
      | DErr e => DErr e
      | DOk (e, ended, r) =>
          if ended then DOk ([e], r)
          else
            match r with
            | s :: r' =>
                if is COMMA s then
                  match decl_items n' fuel td mu b r' with
                  | DOk (l, r'') => DOk (e :: l, r'')
                  | DErr e' => DErr e'
                  end
                else if is SEMI s then DOk ([e], r')
                else DErr 1
            | [] => DErr 2
            end
      end
  end.

Definition decl_stmt (n fuel : nat) (toks : list tk) : dres (mods * list entry * list tk) :=
  match parse_specs toks with
  | DErr e => DErr e
  | DOk (m, b, r) =>
      match r with
      | a :: _ =>
          if is T_auto a then DErr 4                     (* abbreviated template return type *)
          else if validate true false m then
            match decl_items n fuel false (m_mutable m) (TBase b (m_const m) (m_volatile m)) r with
            | DOk (l, r') => DOk (m, l, r')
            | DErr e => DErr e
            end
          else DErr 3
      | [] =>
          if validate true false m then
            match decl_items n fuel false (m_mutable m) (TBase b (m_const m) (m_volatile m)) r with
            | DOk (l, r') => DOk (m, l, r')
            | DErr e => DErr e
            end
          else DErr 3
      end
  end.

(* `typedef` statements through the same loop (_parse_typedef hands the token behind `typedef` to _parse_declarations with
   is_typedef): validate(False, False), no abbreviated-template promotion, every declarator a Typedef of an object type
   or of a function type *)
Definition typedef_decl_stmt (n fuel : nat) (toks : list tk) : dres (list entry * list tk) :=
  match parse_specs toks with
  | DErr e => DErr e
  | DOk (m, b, r) =>
      if validate false false m then decl_items n fuel true false (TBase b (m_const m) (m_volatile m)) r
      else DErr 3
  end.

Inductive ditem :=
| IVar (ls : list layer) (n : N) (i : init)
| IFn (ls : list layer) (ps : list (ty * option N)) (va : bool) (n : N) (th ne : option (list tk)) (nep : bool).

Definition ditem_toks (it : ditem) : list tk :=
  match it with
  | IVar ls n i => P ls [mkTk T_NAME n] ++ init_toks i
  | IFn ls ps va n th ne nep => P (ls ++ [LFn ps va]) [mkTk T_NAME n] ++ spec_toks th ne nep
  end.

Definition ditem_entry (b : ty) (it : ditem) : entry :=
  match it with
  | IVar ls n i => EVar n (wrap b ls) (init_value i)
  | IFn ls ps va n th ne nep => EFn n (wrap b ls) ps va (tail_of th ne EndDecl)
  end.

Definition spec_ok (th ne : option (list tk)) (nep : bool) : Prop :=
  (match th with Some e => SNk e | None => True end) /\
  (match ne with Some e => SNk e /\ (nep = false -> e = []) | None => True end).

Definition ditem_ok (it : ditem) : Prop :=
  match it with
  | IVar ls n i => legalL KB ls = true /\ Forall layer_ok ls /\ kind_end KB ls <> KFn /\ init_ok i
  | IFn ls ps va n th ne nep =>
      legalL KB (ls ++ [LFn ps va]) = true /\ Forall layer_ok (ls ++ [LFn ps va]) /\
      (kind_end KB ls = KB \/ kind_end KB ls = KRef) /\ spec_ok th ne nep
  end.

(* how the last declarator of the statement ends: ';', or (functions only) a body / `= delete ;` *)
Inductive last_end := LSemi | LBody (soup : list tk) | LDelete.

Definition last_is_fn (it : ditem) : bool := match it with IFn _ _ _ _ _ _ _ => true | _ => false end.

Definition last_toks (le : last_end) : list tk :=
  match le with
  | LSemi => [ktok SEMI]
  | LBody soup => ktok LBRACE :: soup ++ [ktok RBRACE]
  | LDelete => [ktok EQ; ktok T_delete; ktok SEMI]
  end.

Definition last_ok (it : ditem) (le : last_end) : Prop :=
  match le with
  | LSemi => True
  | LBody soup => last_is_fn it = true /\ bal tk kty LBRACE RBRACE soup
  | LDelete => last_is_fn it = true
  end.

Definition last_entry (b : ty) (it : ditem) (le : last_end) : entry :=
  match it, le with
  | IFn ls ps va n th ne nep, LBody _ => EFn n (wrap b ls) ps va (tail_of th ne (EndBody []))
  | IFn ls ps va n th ne nep, LDelete => EFn n (wrap b ls) ps va (tail_of th ne EndDelete)
  | _, _ => ditem_entry b it
  end.

Fixpoint items_toks (items : list ditem) (last : ditem) (le : last_end) : list tk :=
  match items with
  | [] => ditem_toks last ++ last_toks le
  | it :: q => ditem_toks it ++ ktok COMMA :: items_toks q last le
  end.

Lemma strip_group_id r : nolp r = true -> strip_group r = DOk r.
Proof. apply head_gate. Qed.

(* behind a declarator's name: '(' makes a function, `::` / '<' leave the model, anything else is the object's tail *)
Lemma name_then_object {A} (X : list tk) (fn : nat -> list tk -> A) (e : A) (k : nat -> A) v :
  headb (fun a => negb (is LP a || is T_DBL_COLON a || is LT a)) X = true -> ev k v ->
  ev (fun f => match X with
               | a :: r => if is LP a then fn f r else if is T_DBL_COLON a || is LT a then e else k f
               | [] => k f
               end) v.
Proof.
  intros H. apply ev_ext. intros f. destruct X as [|a r]; [reflexivity|]. cbn [headb] in H. apply negb_true_iff in H.
  apply orb_false_elim in H as [H H3]. apply orb_false_elim in H as [H1 H2]. now rewrite H1, H2, H3.
Qed.

Lemma one_decl_var td b c v ls n i s rest :
  legalL KB ls = true -> Forall layer_ok ls -> kind_end KB ls <> KFn -> init_ok i -> sep_ok s -> (td = true -> i = NoInit) ->
  ev (fun f => one_decl f td false (TBase b c v) (P ls [mkTk T_NAME n] ++ init_toks i ++ s :: rest))
     (DOk (EVar n (wrap (TBase b c v) ls) (init_value i), false, s :: rest)).
Proof.
  intros Hleg Hok Hk Hi Hs Htd. set (X := init_toks i ++ s :: rest).
  destruct (init_head_sep i s rest Hs) as (S1 & S2 & _).
  destruct (declarator_arr false b c v ls (Some n) X Hleg Hok Hk S1 eq_refl S2) as (d & R & Hcv & Hnf & HR).
  pose proof (init_part_sep td i s rest Hi Htd Hs) as Hip. fold X in Hip.
  unfold one_decl. eapply ev_bind; [exact Hcv|]. cbn beta iota. rewrite Hnf.
  cbn [name_toks app]. rewrite strip_group_id by reflexivity. isc. cbn [kval].
  apply name_then_object.
  { apply (arrs_left_head _ _ _ _ _ HR); [reflexivity|]. unfold X. destruct i, Hs as [->| ->]; reflexivity. }
  unfold field_part. eapply ev_bind; [exact (field_arr _ _ _ _ HR S2)|]. cbn beta iota. rewrite Hip.
  apply (ev_gate (is COLON)); [now apply init_no_colon_sep|destruct td; apply ev_const].
Qed.

Lemma spec_head_nolb th ne nep X : nolb (spec_toks th ne nep ++ X) = true \/ spec_toks th ne nep = [].
Proof.
  destruct th as [e|]; [left; reflexivity|]. destruct ne as [e|]; [left; reflexivity|]. right. reflexivity.
Qed.

Lemma one_decl_fn td b c v ls ps va n th ne nep en rest :
  legalL KB (ls ++ [LFn ps va]) = true -> Forall layer_ok (ls ++ [LFn ps va]) ->
  (kind_end KB ls = KB \/ kind_end KB ls = KRef) -> tail_ok th ne nep en rest ->
  (en = EndDecl -> nolb rest = true) -> (td = true -> en = EndDecl) ->
  ev (fun f => one_decl f td false (TBase b c v)
                 (P (ls ++ [LFn ps va]) [mkTk T_NAME n] ++ spec_toks th ne nep ++ ending_toks en ++ rest))
     (DOk (EFn n (wrap (TBase b c v) ls) ps va (tail_of th ne en), t_body (tail_of th ne en), rest)).
Proof.
  intros Hleg Hok Hk Htl Hnb Htd. set (X := spec_toks th ne nep ++ ending_toks en ++ rest).
  pose proof (tail_nolb th ne nep en rest Hnb) as Hnl.
  destruct (fn_head_layers b c v ls ps va n X Hleg Hok Hk Hnl) as (Hcv & Hnf & Hprm).
  unfold one_decl. eapply ev_bind; [exact Hcv|]. cbn beta iota. rewrite Hnf.
  rewrite strip_group_id by reflexivity. isc. cbn [kval].
  unfold fn_part. eapply ev_bind; [exact Hprm|]. cbn beta iota. unfold X. rewrite (fn_tail_roundtrip _ _ _ _ _ Htl).
  destruct td; [rewrite (Htd eq_refl)|]; apply ev_const.
Qed.

Definition td_item_ok (it : ditem) : Prop :=
  ditem_ok it /\ match it with IVar _ _ i => i = NoInit | IFn _ _ _ _ _ _ _ => True end.

Definition ditem_ok_td (td : bool) (it : ditem) : Prop := if td then td_item_ok it else ditem_ok it.

Lemma ditem_ok_td_inv td it : ditem_ok_td td it ->
  ditem_ok it /\ (td = true -> match it with IVar _ _ i => i = NoInit | IFn _ _ _ _ _ _ _ => True end).
Proof. destruct td; [intros [H1 H2]; now split|intros H; split; [exact H|discriminate]]. Qed.

Lemma one_decl_item td b c v it s rest :
  ditem_ok_td td it -> sep_ok s ->
  ev (fun f => one_decl f td false (TBase b c v) (ditem_toks it ++ s :: rest))
     (DOk (ditem_entry (TBase b c v) it, false, s :: rest)).
Proof.
  intros Hit Hs. destruct (ditem_ok_td_inv td it Hit) as [Hok Htd].
  destruct it as [ls n i|ls ps va n th ne nep]; cbn [ditem_toks ditem_entry ditem_ok] in *;
    destruct Hok as (H1 & H2 & H3 & H4); rewrite <- app_assoc.
  - now apply one_decl_var.
  - destruct H4 as [Hth Hne].
    apply (one_decl_fn td b c v ls ps va n th ne nep EndDecl (s :: rest)); try assumption; try reflexivity.
    + repeat split; try assumption. destruct Hs as [->| ->]; reflexivity.
    + intros _. destruct Hs as [->| ->]; reflexivity.
Qed.

Lemma decl_items_last n td mu b toks e (ended : bool) r rest :
  ev (fun f => one_decl f td mu b toks) (DOk (e, ended, r)) -> r = (if ended then rest else ktok SEMI :: rest) ->
  ev (fun f => decl_items (S n) f td mu b toks) (DOk ([e], rest)).
Proof.
  intros H ->. cbn [decl_items]. eapply ev_bind; [exact H|]. cbn beta iota.
  destruct ended; [apply ev_const|]. isc. apply ev_const.
Qed.

Definition end_of (le : last_end) : ending :=
  match le with LSemi => EndDecl | LBody soup => EndBody soup | LDelete => EndDelete end.

Lemma last_split le rest : last_toks le ++ rest = ending_toks (end_of le) ++ after_tail (end_of le) rest.
Proof. destruct le; cbn [last_toks end_of ending_toks after_tail]; rewrite <- ?app_assoc; reflexivity. Qed.

Lemma last_entry_fn b ls ps va n th ne nep le :
  last_entry b (IFn ls ps va n th ne nep) le = EFn n (wrap b ls) ps va (tail_of th ne (end_of le)).
Proof. now destruct le. Qed.

Lemma last_rt td b c v it le rest :
  ditem_ok_td td it -> last_ok it le -> (td = true -> le = LSemi) ->
  ev (fun f => decl_items 1 f td false (TBase b c v) (ditem_toks it ++ last_toks le ++ rest))
     (DOk ([last_entry (TBase b c v) it le], rest)).
Proof.
  intros Hit Hle Htd. destruct it as [ls n i|ls ps va n th ne nep].
  - destruct le; [|now destruct Hle|discriminate Hle].
    apply (decl_items_last _ _ _ _ _ _ false (ktok SEMI :: rest)); [|reflexivity].
    apply (one_decl_item td b c v (IVar ls n i)); [exact Hit|now right].
  - destruct (ditem_ok_td_inv td _ Hit) as [(H1 & H2 & H3 & Hth & Hne) _].
    rewrite last_split, last_entry_fn. cbn [ditem_toks]. rewrite <- app_assoc.
    apply (decl_items_last _ _ _ _ _ _ (t_body (tail_of th ne (end_of le))) (after_tail (end_of le) rest)); [|now destruct le].
    apply one_decl_fn; try assumption.
    + repeat split; try assumption. destruct le; [reflexivity|apply Hle|exact I].
    + now destruct le.
    + intros E. now rewrite (Htd E).
Qed.

Lemma items_toks_commas items last le : items_toks items last le = commas ditem_toks items (ditem_toks last ++ last_toks le).
Proof. induction items as [|it q IH]; [reflexivity|]. cbn [items_toks commas]. now rewrite IH. Qed.

Lemma decl_items_gen td b c v items last le rest :
  Forall (ditem_ok_td td) items -> ditem_ok_td td last -> last_ok last le -> (td = true -> le = LSemi) ->
  ev (fun f => decl_items (S (length items)) f td false (TBase b c v) (items_toks items last le ++ rest))
     (DOk (map (ditem_entry (TBase b c v)) items ++ [last_entry (TBase b c v) last le], rest)).
Proof.
  intros Hall Hlast Hle Htd. rewrite items_toks_commas, commas_app, <- app_assoc.
  apply (commas_rt (fun n f => decl_items n f td false (TBase b c v))) with (ok := ditem_ok_td td); [|assumption|now apply last_rt].
  intros it n Y Hit. apply (ev_with (one_decl_item td b c v it (ktok COMMA) Y Hit (or_introl eq_refl))), ev_always.
  intros f E. cbn [decl_items]. rewrite E. cbn iota. isc. reflexivity.
Qed.

(* a token list that starts like a printed declarator: this is all the statement level needs to know of what
   stands behind the specifiers *)
Definition starts_decl (s : list tk) : Prop := exists ls n Y, s = P ls [mkTk T_NAME n] ++ Y.

Lemma starts_decl_head (h : tk -> bool) s :
  starts_decl s ->
  h (ktok STAR) = true -> h (ktok AMP) = true -> h (ktok T_DBL_AMP) = true -> h (ktok LP) = true -> h (ktok LB) = true ->
  (forall n, h (mkTk T_NAME n) = true) -> headb h s = true.
Proof. intros (ls & n & Y & ->) H1 H2 H3 H4 H5 Hn. apply head_P; try assumption. apply Hn. Qed.

Lemma starts_decl_stop s : starts_decl s -> spec_stop s = true.
Proof. intros (ls & n & Y & ->). apply P_head_stop. Qed.

Lemma items_start items last le rest : starts_decl (items_toks items last le ++ rest).
Proof.
  assert (G : forall it Y, starts_decl (ditem_toks it ++ Y)).
  { intros [ls n i|ls ps va n th ne nep] Y; cbn [ditem_toks]; rewrite <- app_assoc; repeat eexists. }
  destruct items as [|it q]; cbn [items_toks]; rewrite <- app_assoc; apply G.
Qed.

(* `spec* T spec* d1, ..., dn <end>` where every d is a variable declarator with an optional initialiser or a function
   declarator with an optional exception specification, in any mixture and order *)
Theorem decl_stmt_roundtrip pre post b items last le rest :
  forallb spec_kw pre = true -> forallb spec_kw post = true ->
  has T_explicit (pre ++ post) = false -> has T_virtual (pre ++ post) = false -> has T_mutable (pre ++ post) = false ->
  Forall ditem_ok items -> ditem_ok last -> last_ok last le ->
  let m := apply_kws (pre ++ post) mods0 in
  let bt := TBase b (m_const m) (m_volatile m) in
  ev (fun f => decl_stmt (S (length items)) f
                 (kw_toks pre ++ nm_tok b :: kw_toks post ++ items_toks items last le ++ rest))
     (DOk (m, map (ditem_entry bt) items ++ [last_entry bt last le], rest)).
Proof.
  intros Hpre Hpost Hex Hvi Hmu Hall Hlast Hle m bt.
  pose proof (spec_kws_app pre post Hpre Hpost) as Hk.
  assert (Hval : validate true false m && negb (m_mutable m) = true) by (apply validate_ns_ok; assumption).
  apply andb_prop in Hval as [Hv1 Hv2]. apply negb_true_iff in Hv2.
  unfold decl_stmt.
  rewrite (specs_decode_app pre post b _ Hpre Hpost (starts_decl_stop _ (items_start items last le rest))). fold m.
  rewrite Hv1, Hv2. fold bt.
  apply (ev_gate (is T_auto)); [apply (starts_decl_head _ _ (items_start items last le rest)); reflexivity|].
  eapply ev_bind; [now apply (decl_items_gen false)|]. apply ev_const.
Qed.

Definition is_fn_entry (e : entry) : bool := match e with EFn _ _ _ _ _ => true | _ => false end.

Lemma kinds_follow_declarators b items last le :
  map is_fn_entry (map (ditem_entry b) items ++ [last_entry b last le]) = map last_is_fn (items ++ [last]).
Proof.
  rewrite !map_app, map_map. f_equal.
  - apply map_ext. intros [|]; reflexivity.
  - cbn [map]. destruct last, le; reflexivity.
Qed.

Lemma decl_items_td_rt b c v items last rest :
  Forall td_item_ok items -> td_item_ok last ->
  ev (fun f => decl_items (S (length items)) f true false (TBase b c v) (items_toks items last LSemi ++ rest))
     (DOk (map (ditem_entry (TBase b c v)) items ++ [ditem_entry (TBase b c v) last], rest)).
Proof.
  intros Hall Hlast. replace (ditem_entry (TBase b c v) last) with (last_entry (TBase b c v) last LSemi) by now destruct last.
  apply decl_items_gen; [exact Hall|exact Hlast|exact I|reflexivity].
Qed.

(* under typedef `mutable` is never looked at: no Variable is built *)
Lemma decl_items_td_mu mu b : forall n f toks, decl_items n f true mu b toks = decl_items n f true false b toks.
Proof.
  induction n as [|n IH]; intros f toks; [reflexivity|]. cbn [decl_items].
  change (one_decl f true mu b toks) with (one_decl f true false b toks).
  destruct (one_decl f true false b toks) as [[[e [|]] [|s r]]|]; try reflexivity.
  destruct (is COMMA s); [now rewrite IH|reflexivity].
Qed.

(* `typedef cv* T cv* d1, ..., dn ;` *)
Theorem typedef_decl_stmt_roundtrip pre post b items last rest :
  forallb (fun k => (k =? T_const) || (k =? T_volatile)) (pre ++ post) = true ->
  Forall td_item_ok items -> td_item_ok last ->
  let m := apply_kws (pre ++ post) mods0 in
  let bt := TBase b (m_const m) (m_volatile m) in
  ev (fun f => typedef_decl_stmt (S (length items)) f
                 (kw_toks pre ++ nm_tok b :: kw_toks post ++ items_toks items last LSemi ++ rest))
     (DOk (map (ditem_entry bt) items ++ [ditem_entry bt last], rest)).
Proof.
  intros Hcv Hall Hlast m bt.
  destruct (cv_only_kws _ Hcv) as [Hk Hval]. rewrite forallb_app in Hk. apply andb_prop in Hk as [Hpre Hpost].
  unfold typedef_decl_stmt.
  rewrite (specs_decode_app pre post b _ Hpre Hpost (starts_decl_stop _ (items_start items last LSemi rest))), Hval.
  now apply decl_items_td_rt.
Qed.
