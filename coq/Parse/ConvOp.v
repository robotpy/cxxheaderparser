(* Hand-written mirror of how a conversion operator is read inside a class body:
   _parse_type(tok, operator_ok=True) collects the leading specifiers and stops
   at the `operator` keyword without a type name; _parse_declarations validates
   them and calls _parse_operator_conversion, which reads the conversion type
   (`[cv] NAME [cv]` and pointer / reference operators: _parse_type(None),
   validate(False, False), _parse_cv_ptr), requires '(' and hands over to
   _parse_function (name `operator`, operator "conversion"): parameter list and
   _parse_method_end; without a body the statement must end with ';'.
   Outside a class (no qualified names in this model) the same text would be a
   plain function named `operator`: outside the model (code 4).
   Tied to the code by the differential run of harness/props/c03.py. *)
From Coq Require Import NArith List Bool.
Import ListNotations.
From CXV Require Import Gen.TokTy Parse.BalancedThms Parse.Declarator Parse.DeclSpec Parse.DeclThms Parse.EnumList Parse.Specs
  Parse.MethodTail Parse.MemberStmt.
Open Scope N_scope.

(* the specifier loop of _parse_type up to the `operator` keyword (no type name before it) *)
Fixpoint lead_specs (m : mods) (toks : list tk) {struct toks} : dres (mods * list tk) :=
  match toks with
  | t :: r =>
      if is T_operator t then DOk (m, r)
      else match set_mod (kty t) m with
           | Some m' => if is T_extern t then DErr 4 else lead_specs m' r
           | None => DErr 4                       (* anything else: not a conversion operator statement *)
           end
  | [] => DErr 2
  end.

Record convop := mkConv { cv_mods : mods; cv_type : ty; cv_params : list (ty * option N); cv_vararg : bool; cv_tail : mtail }.

Definition conv_stmt (fuel : nat) (toks : list tk) : dres (convop * list tk) :=
  match lead_specs mods0 toks with
  | DErr e => DErr e
  | DOk (m, r) =>
      (* validate(var_ok = true, meth_ok = true) in a class: always passes *)
      match parse_specs r with
      | DErr e => DErr e
      | DOk (cm, b, r1) =>
          if negb (validate false false cm) then DErr 3
          else
            match cvptr fuel (TBase b (m_const cm) (m_volatile cm)) r1 with
            | DErr e => DErr e
            | DOk (d, r2) =>
                if is_fn d then DErr 3
                else
                  match r2 with
                  | lp :: r3 =>
                      if is LP lp then
                        match params fuel r3 with
                        | DErr e => DErr e
                        | DOk (ps, va, r4) =>
                            match parse_method_end r4 with
                            | DErr e => DErr e
                            | DOk (q, r5) =>
                                if q_body q then DOk (mkConv m d ps va q, r5)
                                else match r5 with
                                     | s :: r6 => if is SEMI s then DOk (mkConv m d ps va q, r6) else DErr 1
                                     | [] => DErr 2
                                     end
                            end
                        end
                      else DErr 1
                  | [] => DErr 2
                  end
            end
      end
  end.

(* the loop over written specifier keywords: `extern` ends it with "not a conversion operator" *)
Lemma lead_specs_over : forall ks m X, forallb spec_kw ks = true ->
  lead_specs m (kw_toks ks ++ X) = if has T_extern ks then DErr 4 else lead_specs (apply_kws ks m) X.
Proof.
  induction ks as [|k q IH]; intros m X Hk; [reflexivity|].
  cbn [forallb] in Hk. apply andb_prop in Hk as [Hk1 Hk2].
  pose proof (set_mod_kw k m Hk1) as Em.
  cbn [kw_toks map app lead_specs]. rewrite (spec_kw_not_operator k Hk1). cbn [kty ktok]. rewrite Em.
  unfold has, is, apply_kws. cbn [existsb fold_left kty ktok]. rewrite Em, (N.eqb_sym k).
  destruct (T_extern =? k); [reflexivity|]. now apply IH.
Qed.

Lemma lead_specs_kws ks m R :
  forallb spec_kw ks = true -> has T_extern ks = false ->
  lead_specs m (kw_toks ks ++ ktok T_operator :: R) = DOk (apply_kws ks m, R).
Proof. intros Hk He. now rewrite lead_specs_over, He. Qed.

Definition all_pfx (ls : list layer) : bool := forallb is_pfx ls.

(* `spec* operator cv* T cv* <pointer / reference operators> ( params ) quals <end>` in a class body *)
Theorem conv_stmt_roundtrip pre cpre cpost b ls ps va quals e rest :
  forallb spec_kw pre = true -> has T_extern pre = false ->
  forallb (fun k => (k =? T_const) || (k =? T_volatile)) (cpre ++ cpost) = true ->
  all_pfx ls = true -> legalL KB ls = true ->
  layer_ok (LFn ps va) -> Forall mq_ok quals ->
  (match e with MeBody soup => bal tk kty LBRACE RBRACE soup | MeCtor _ _ => False | _ => True end) ->
  let cm := apply_kws (cpre ++ cpost) mods0 in
  let t := wrap (TBase b (m_const cm) (m_volatile cm)) ls in
  ev (fun f => conv_stmt f (kw_toks pre ++ ktok T_operator :: kw_toks cpre ++ nm_tok b :: kw_toks cpost ++ P ls [] ++
                            ktok LP :: params_toks ps va ++ ktok RP :: flat_map mq_toks quals ++ mlast_toks e ++ rest))
     (DOk (mkConv (apply_kws pre mods0) t ps va (apply_end e (quals_of quals)), rest)).
Proof.
  intros Hpre Hex Hcv Hpf Hleg [_ Hprm] Hq He cm t.
  destruct (cv_only_kws _ Hcv) as [Hk Hval]. rewrite forallb_app in Hk. apply andb_prop in Hk as [Hcpre Hcpost].
  set (Y := flat_map mq_toks quals ++ mlast_toks e ++ rest).
  set (X := ktok LP :: params_toks ps va ++ ktok RP :: Y).
  destruct (pfx_type_head ls X Hpf eq_refl eq_refl) as [Hstop _].
  destruct (cvptr_pfx b (m_const cm) (m_volatile cm) ls X Hpf Hleg (params_stops ps va Y) eq_refl) as [H1 Hnf].
  unfold conv_stmt. rewrite (lead_specs_kws pre mods0 _ Hpre Hex).
  rewrite (specs_decode_app cpre cpost b (P ls [] ++ X) Hcpre Hcpost Hstop), Hval. fold cm.
  cbn [negb]. eapply ev_bind; [exact H1|]. cbn beta iota. rewrite Hnf.
  unfold X at 1. isc. eapply ev_bind; [apply Hprm|]. cbn beta iota.
  unfold Y. rewrite (method_close (mkConv _ _ _ _) quals e rest Hq He). apply ev_const.
Qed.
