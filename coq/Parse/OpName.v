(* Hand-written mirror of CxxParser._parse_pqname_name_operator (entered
   after the `operator` keyword of a name): the first token always belongs to
   the operator's name; `(` must be followed by `)` (the call operator) and the
   name is those two tokens whatever follows; any other name runs up to the
   next `(` (the parameter list) or `;` (a using-declaration), which is left in
   the stream.  No validation is done (as in the code).
   Tied to the code by the differential run of harness/props/c03.py. *)
From Coq Require Import NArith List Bool.
Import ListNotations.
From CXV Require Import Parse.Declarator.
Open Scope N_scope.

Definition op_stop (t : tk) : bool := is LP t || is SEMI t.

(* _consume_until(parts, "(", ";"): token_if_not returns None at a stop token and at end of input *)
Fixpoint until_stop (toks : list tk) : list tk * list tk :=
  match toks with
  | t :: r => if op_stop t then ([], toks) else let '(p, rest) := until_stop r in (t :: p, rest)
  | [] => ([], [])
  end.

Definition op_name (toks : list tk) : dres (list tk * list tk) :=
  match toks with
  | t :: r =>
      if is LP t then
        match r with
        | c :: r' => if is RP c then DOk ([t; c], r') else DErr 1
        | [] => DErr 2
        end
      else let '(p, rest) := until_stop r in DOk (t :: p, rest)
  | [] => DErr 2
  end.

Lemma until_stop_exact : forall parts s R,
  forallb (fun t => negb (op_stop t)) parts = true -> op_stop s = true ->
  until_stop (parts ++ s :: R) = (parts, s :: R).
Proof.
  induction parts as [|t q IH]; intros s R Hp Hs; cbn [app until_stop].
  - now rewrite Hs.
  - cbn [forallb] in Hp. apply andb_prop in Hp as [Ht Hq]. apply negb_true_iff in Ht. rewrite Ht.
    now rewrite (IH s R Hq Hs).
Qed.

Theorem call_operator_name lp rp R : is LP lp = true -> is RP rp = true -> op_name (lp :: rp :: R) = DOk ([lp; rp], R).
Proof. intros H1 H2. cbn [op_name]. now rewrite H1, H2. Qed.

Theorem operator_name_exact t parts s R :
  is LP t = false -> forallb (fun x => negb (op_stop x)) parts = true -> op_stop s = true ->
  op_name (t :: parts ++ s :: R) = DOk (t :: parts, s :: R).
Proof. intros Ht Hp Hs. cbn [op_name]. rewrite Ht. now rewrite (until_stop_exact parts s R Hp Hs). Qed.
