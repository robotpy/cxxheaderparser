(* C12 -- Sibling declarations are independent and scopes compose.
   Model: Parse/Fold.v (SimpleCxxVisitor as a fold over the forest of blocks),
   tied to the code by folding recorded real callback streams and comparing
   with the data the real visitor built. *)
From Coq Require Import NArith List.
Import ListNotations.
From CXV Require Import Parse.Fold Parse.FoldThms.
From CXV Require Gen.PinsC12.
From CXV Require Import Parse.TopLoop.
From CXV Require Gen.Facts.
From CXV Require Import Gen.TokTy Parse.Declarator Parse.DeclSpec Parse.EnumList Parse.NsHeader.
From CXV Require Import Parse.DeclThms Parse.Specs Parse.DeclStmt Parse.Bodies Parse.ClassDef Parse.ClassDefThms Parse.ClassDefElems Parse.PQName Parse.Using Parse.EnumDecl Parse.FinishClass.
Open Scope N_scope.

(* fold_compositional: the result of a concatenation of two declaration
   sequences is the scope-wise concatenation (merge) of their results: items
   and classes appended scope by scope, namespaces merged by name in order of
   first appearance - for all sequences, any nesting *)
Theorem fold_compositional :
  forall f1 f2 : list elem, fold_ns (f1 ++ f2) = merge (fold_ns f1) (fold_ns f2).
Proof. exact (fun f1 f2 => eq_trans (fold_from_app empty_ns f1 f2) (fold_from_merge (fold_ns f1) f2)). Qed.

(* nothing but the result so far is carried from one sequence to the next *)
Theorem fold_continues :
  forall f1 f2 : list elem, fold_ns (f1 ++ f2) = fold_from (fold_ns f1) f2.
Proof. exact (fold_from_app empty_ns). Qed.

(* re-opening a namespace right behind its first block appends to the same scope *)
Theorem namespace_reopen :
  forall s names b1 b2,
    absorb (absorb s (ENs names b1)) (ENs names b2) = absorb s (ENs names (b1 ++ b2)).
Proof. exact namespace_reopen_lemma. Qed.

Theorem nested_ns_equiv :
  forall s n r body, r <> [] -> absorb s (ENs (n :: r) body) = absorb s (ENs [n] [ENs r body]).
Proof. exact nested_ns_equiv_lemma. Qed.

Theorem extern_transparent :
  forall s pre b post, fold_from s (pre ++ EExtern b :: post) = fold_from s (pre ++ b ++ post).
Proof. exact extern_transparent_lemma. Qed.

(* the names a namespace block contributes to the fold (ENs names) are the names
   written in its header: `namespace a::b::c {` (any length), `namespace {`;
   an alias keeps its target path, a leading '::' included; a nested
   definition cannot be inline *)
Theorem namespace_header_decodes : forall names rest,
  ns_header false (path_toks names ++ ktok LBRACE :: rest) = DOk (NsDef names, rest).
Proof. exact ns_definition_roundtrip. Qed.

Theorem namespace_alias_decodes : forall x (rooted : bool) n q rest,
  ns_header false (mkTk T_NAME x :: ktok EQ :: (if rooted then [ktok T_DBL_COLON] else []) ++ path_toks (n :: q) ++ ktok SEMI :: rest)
  = DOk (NsAlias x ((if rooted then [0] else []) ++ n :: q), rest).
Proof. exact ns_alias_roundtrip. Qed.

Theorem inline_nested_namespace_rejected : forall n m q rest,
  ns_header true (path_toks (n :: m :: q) ++ ktok LBRACE :: rest) = DErr 3.
Proof. exact inline_nested_rejected. Qed.

(* the functions the hand-written models above mirror (_parse_namespace) are, token for
   token of their syntax trees, the ones the models were written against: the
   translator recomputes the digests from the live code and writes Gen/PinsC12.v
   with model_code_pinned := true only when they match *)
Theorem modelled_functions_are_the_pinned_ones : PinsC12.model_code_pinned = true.
Proof. exact (eq_refl true). Qed.

(* no documentation text leaks from one declaration into the next: after any
   statement of the dispatch loop that is not a kept decoration the pending
   text is None, whatever was pending before and whatever the statement was;
   statements are dispatched one call each, in order *)
Theorem pending_doc_text_does_not_leak : forall (D : Type) p l (s : stmt D),
  kept D s = false -> pend D p (l ++ [s]) = None.
Proof. intros D p l s H. now rewrite pend_snoc, H. Qed.

Theorem statements_dispatched_once_in_order : forall (D : Type) p (l : list (stmt D)),
  map fst (run D p l) = map (fun s => dispatch (s_ty D s)) l.
Proof. exact calls_in_order. Qed.

(* the parser object has no other state a declaration could leave behind: the
   only attributes of `self` ever stored to outside __init__ are state, visitor,
   lex (swapped and restored inside one template argument list), anon_id and
   current_namespace; no setattr / __dict__ / class-object stores (regenerated
   from the AST of every method of CxxParser on every run) *)
Theorem parser_keeps_no_other_state : Facts.fact_parser_instance_state_is_the_known_set = true.
Proof. exact (eq_refl true). Qed.

(* "Parsing the concatenation of two complete declaration sequences yields exactly the concatenation of their individual
   results" on the PARSER side (the visitor side is fold_compositional): the statement loop over the regenerated dispatch
   table with the declaration models behind it.  For sequences A and B of declaration statements (each any statement the
   statement theorems of C01 cover -- abstractly: tokens that start with a token going to _parse_declarations and that the
   declaration models decode whatever follows), the items of A B are the items of A followed by the items of B: no
   specifier, template header, type or parser state of a statement reaches the next one. *)
Theorem declaration_sequences_concatenate_partial : forall n A B stop rest,
  Forall (fun p => ns_stmt_ok n (fst p) (snd p)) A -> Forall (fun p => ns_stmt_ok n (fst p) (snd p)) B -> stop_tok stop ->
  ev (fun f => ns_body (S (length (A ++ B))) n f (concat (map fst A) ++ concat (map fst B) ++ stop :: rest))
     (DOk (map snd A ++ map snd B, stop :: rest)).
Proof. exact ns_body_concatenation. Qed.

(* ... and the statements of declaration_statement_decodes_partial (C01) are such statements *)
Theorem declaration_statements_compose : forall pre post b items last le,
  forallb spec_kw pre = true -> forallb spec_kw post = true ->
  has T_explicit (pre ++ post) = false -> has T_virtual (pre ++ post) = false -> has T_mutable (pre ++ post) = false ->
  Forall ditem_ok items -> ditem_ok last -> last_ok last le ->
  is_decl_head (hd (nm_tok b) (kw_toks pre)) ->
  let m := apply_kws (pre ++ post) mods0 in
  let bt := TBase b (m_const m) (m_volatile m) in
  ns_stmt_ok (S (length items))
    (kw_toks pre ++ nm_tok b :: kw_toks post ++ items_toks items last le)
    (NDecls m (map (ditem_entry bt) items ++ [last_entry bt last le])).
Proof. exact decl_stmt_is_stmt. Qed.

(* "Scopes compose" on the PARSER side (Parse/ClassDef.v body: the statement loop over the regenerated dispatch table, with the
   header of _parse_namespace, the translated _parse_extern / _parse_inline, the class statement and the declaration models
   behind it, recursing into every block).  For a translation unit written as any tree of namespaces (any names, the anonymous
   namespace), linkage blocks, class definitions (trees of C03), forward declarations, empty statements and declaration
   statements (abstractly, as above), nested to any depth: every statement is reported once, in order, inside the block it
   is written in -- and the unit A B reads as the items of A followed by the items of B. *)
Theorem translation_unit_reads_back_partial : forall n dt (es : list nelem),
  nelems_ok n dt es ->
  ev (fun f => body (S (nssize es)) n f dt None 0 0 (flat_map nelem_toks es)) (DOk (flat_map nelem_spec es, 0, [])).
Proof. exact unit_tree. Qed.

Theorem translation_units_concatenate_partial : forall n dt (A B : list nelem),
  nelems_ok n dt A -> nelems_ok n dt B ->
  ev (fun f => body (S (nssize (A ++ B))) n f dt None 0 0 (flat_map nelem_toks A ++ flat_map nelem_toks B))
     (DOk (flat_map nelem_spec A ++ flat_map nelem_spec B, 0, [])).
Proof. exact unit_concatenation. Qed.

(* ... and the statements of declaration_statement_decodes_partial (C01) are such elements *)
Theorem declaration_statements_are_unit_elements : forall dt pre post b items last le,
  forallb spec_kw pre = true -> forallb spec_kw post = true ->
  has T_explicit (pre ++ post) = false -> has T_virtual (pre ++ post) = false -> has T_mutable (pre ++ post) = false ->
  Forall ditem_ok items -> ditem_ok last -> last_ok last le ->
  is_decl_head (hd (nm_tok b) (kw_toks pre)) ->
  let m := apply_kws (pre ++ post) mods0 in
  let bt := TBase b (m_const m) (m_volatile m) in
  nelem_ok (S (length items)) dt
    (NStmt (kw_toks pre ++ nm_tok b :: kw_toks post ++ items_toks items last le)
           (NDecls m (map (ditem_entry bt) items ++ [last_entry bt last le]))).
Proof. exact decl_stmt_is_nelem. Qed.

(* ... as are using-directives, using-declarations, alias-declarations and enum definitions ([NOne]) *)
Theorem using_directives_are_unit_elements : forall n dt root nm q,
  one_step_ns n dt (ktok T_using :: udir_toks root nm q ++ [ktok T_LIT_59]) (IUsing 0 (UDir root (nm :: q))).
Proof. exact using_directive_is_statement. Qed.

Theorem using_declarations_are_unit_elements : forall n dt (tn root : bool) nm q,
  (q = [] -> root = true \/ tn = true) ->
  one_step_ns n dt (ktok T_using :: pn2_toks (PNames tn [] root nm q) ++ [ktok T_LIT_59])
              (IUsing 0 (UDecl (pn2_out (PNames false [] root nm q)))).
Proof. intros n dt tn root nm q _. exact (one_step_at_ns _ _ _ _ (using_declaration_is_step n dt None tn root nm q)). Qed.

Theorem aliases_are_unit_elements : forall n dt a t,
  DeclSpec.wf t -> kind_of t <> KFn ->
  one_step_ns n dt (ktok T_using :: mkTk T_NAME a :: ktok T_LIT_61 :: decl_toks t None ++ [ktok T_LIT_59]) (IUsing 0 (UAlias a t)).
Proof. intros n dt a t Hwf Hk. exact (one_step_at_ns _ _ _ _ (using_alias_is_step n dt None a t Hwf Hk)). Qed.

Theorem enum_definitions_are_unit_elements : forall n dt key name p items tc,
  enum_key key ->
  (forall X, match p with Some p => base_ok p (ktok T_LIT_123 :: enum_body_toks items tc ++ X) | None => True end) ->
  Forall wenum_ok items -> (items = [] -> tc = false) ->
  one_step_ns n dt (enum_toks key name p items tc ++ [ktok T_LIT_59])
              (IEnum 0 mods0 key name false false (option_map pn2_out p) (map strip_e items) FinNone).
Proof.
  intros n dt key name p items tc Hk Hb H1 _.
  exact (one_step_at_ns _ _ _ _ (enum_definition_is_step n dt None key name p items tc Hk Hb H1)).
Qed.

Theorem opaque_enum_declarations_are_unit_elements : forall n dt key name p,
  enum_key key -> (forall X, base_ok p (ktok T_LIT_59 :: X)) ->
  one_step_ns n dt (map ktok key ++ mkTk T_NAME name :: ktok T_LIT_58 :: pn2_toks p ++ [ktok T_LIT_59]) (IEnumFwd 0 key name (pn2_out p)).
Proof. intros n dt key name p Hk Hb. exact (one_step_at_ns _ _ _ _ (opaque_enum_is_step n dt None key name p Hk Hb)). Qed.

Print Assumptions opaque_enum_declarations_are_unit_elements.
Print Assumptions using_directives_are_unit_elements.
Print Assumptions using_declarations_are_unit_elements.
Print Assumptions aliases_are_unit_elements.
Print Assumptions enum_definitions_are_unit_elements.
Print Assumptions translation_unit_reads_back_partial.
Print Assumptions translation_units_concatenate_partial.
Print Assumptions declaration_statements_are_unit_elements.
Print Assumptions declaration_sequences_concatenate_partial.
Print Assumptions declaration_statements_compose.
Print Assumptions namespace_header_decodes.
Print Assumptions namespace_alias_decodes.
Print Assumptions inline_nested_namespace_rejected.
Print Assumptions fold_compositional.
Print Assumptions fold_continues.
Print Assumptions namespace_reopen.
Print Assumptions nested_ns_equiv.
Print Assumptions extern_transparent.

Example c12_nonvacuous :
  fold_ns ([ENs [7] [EItem 1 1]; EItem 2 2] ++ [ENs [7; 8] [EItem 1 3]; EExtern [EItem 2 4]])
  = NS [(2, 2); (2, 4)] [] [(7, NS [(1, 1)] [] [(8, NS [(1, 3)] [] [])])].
Proof. vm_compute. reflexivity. Qed.
Print Assumptions modelled_functions_are_the_pinned_ones.
Print Assumptions pending_doc_text_does_not_leak.
Print Assumptions statements_dispatched_once_in_order.
Print Assumptions parser_keeps_no_other_state.
