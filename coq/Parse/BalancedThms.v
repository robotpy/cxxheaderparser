(* Theorems about Parse/Balanced.v: _discard_contents, _consume_balanced_tokens, _consume_value_until (C13, C14, and
   the C06 rejections of the balanced-token loops: stray_closer_in_value_rejected_lemma, mismatch_rejected).  For each
   loop: the soups it reads through, the exact result on a printed group or value, and that a result is always a split
   of the input. *)
From Coq Require Import NArith List Bool Lia.
Import ListNotations.
From CXV Require Import Gen.ParserTables Parse.Balanced.
Open Scope N_scope.

Lemma rev_append_app {A} (l1 l2 acc : list A) : rev_append (l1 ++ l2) acc = rev_append l2 (rev_append l1 acc).
Proof. revert acc. induction l1 as [|x l1 IH]; intros acc; [reflexivity|apply IH]. Qed.

Lemma rev_rev_append {A} (l acc : list A) : rev (rev_append l acc) = rev acc ++ l.
Proof. now rewrite rev_append_rev, rev_app_distr, rev_involutive. Qed.

Lemma assoc_in x l c : assocN x l = Some c -> In (x, c) l.
Proof.
  induction l as [|[k v] l IH]; simpl; [discriminate|].
  destruct (N.eqb_spec x k) as [->|Hne]; intros H.
  - inversion H; subst. now left.
  - right. now apply IH.
Qed.

(* Facts about the regenerated tables, each a sweep of the table (they fail when the tables change shape). *)

Lemma closer_of_opener x c :
  assocN x balanced_token_map = Some c -> memN c end_balanced_tokens = true.
Proof.
  intros H. apply assoc_in in H.
  exact (proj1 (forallb_forall (fun kv => memN (snd kv) end_balanced_tokens) balanced_token_map) eq_refl _ H).
Qed.

Lemma opener_not_closer x c :
  assocN x balanced_token_map = Some c -> memN x end_balanced_tokens = false.
Proof.
  intros H. apply assoc_in in H. apply negb_true_iff.
  exact (proj1 (forallb_forall (fun kv => negb (memN (fst kv) end_balanced_tokens)) balanced_token_map) eq_refl _ H).
Qed.

Lemma GT_closer : memN GT end_balanced_tokens = true.
Proof. reflexivity. Qed.

Section Thms.
  Variable T : Type.
  Variable ty : T -> N.

  Notation is_closer x := (memN x end_balanced_tokens).
  Notation opener_of x := (assocN x balanced_token_map).

  (* soups in which the two counted token types are properly nested;
     every other token (brackets of other kinds, keywords, ...) is free *)
  Inductive bal (s e : N) : list T -> Prop :=
  | bal_nil : bal s e []
  | bal_other t l : ty t <> s -> ty t <> e -> bal s e l -> bal s e (t :: l)
  | bal_group a b l1 l2 : ty a = s -> ty b = e ->
      bal s e l1 -> bal s e l2 -> bal s e (a :: l1 ++ b :: l2).

  Lemma discard_bal s e soup :
    s <> e -> bal s e soup ->
    forall n rest, discard ty s e (S n) (soup ++ rest) = discard ty s e (S n) rest.
  Proof.
    intros Hse Hb. induction Hb as [|t l Hs He Hb IH|a b l1 l2 Ha Hb0 H1 IH1 H2 IH2];
      intros n rest.
    - reflexivity.
    - simpl. destruct (N.eqb_spec (ty t) s); [contradiction|].
      destruct (N.eqb_spec (ty t) e); [contradiction|]. apply IH.
    - simpl. rewrite Ha, N.eqb_refl. rewrite <- app_assoc. rewrite IH1.
      simpl. rewrite Hb0. destruct (N.eqb_spec e s) as [E|_]; [congruence|].
      rewrite N.eqb_refl. apply IH2.
  Qed.

  Theorem discard_exact s e soup b rest :
    s <> e -> bal s e soup -> ty b = e ->
    discard ty s e 1 (soup ++ b :: rest) = Ok rest.
  Proof.
    intros Hse Hb Hty. rewrite (discard_bal s e soup Hse Hb 0 (b :: rest)).
    simpl. rewrite Hty. destruct (N.eqb_spec e s) as [E|_]; [congruence|].
    now rewrite N.eqb_refl.
  Qed.

  Lemma discard_suffix s e : forall toks n r,
    discard ty s e n toks = Ok r -> exists p, toks = p ++ r.
  Proof.
    induction toks as [|t l IH]; simpl; intros n r H; [discriminate|].
    destruct (ty t =? s).
    - apply IH in H as [p ->]. now exists (t :: p).
    - destruct (ty t =? e).
      + destruct n as [|[|n]]; [discriminate| |].
        * inversion H; subst. now exists [t].
        * apply IH in H as [p ->]. now exists (t :: p).
      + apply IH in H as [p ->]. now exists (t :: p).
  Qed.

  (* strict-nested soups: ( ) [ ] { } [[ ]] properly nested, '<' and '>'
     anywhere (after the F5 fix) *)
  Inductive SN : list T -> Prop :=
  | SN_nil : SN []
  | SN_plain t l : is_closer (ty t) = false -> opener_of (ty t) = None ->
      SN l -> SN (t :: l)
  | SN_lt t l : opener_of (ty t) = Some GT -> SN l -> SN (t :: l)
  | SN_gt t l : ty t = GT -> SN l -> SN (t :: l)
  | SN_group a b c l1 l2 : opener_of (ty a) = Some c -> c <> GT -> ty b = c ->
      SN l1 -> SN l2 -> SN (a :: l1 ++ b :: l2).

  Lemma SN_app l1 l2 : SN l1 -> SN l2 -> SN (l1 ++ l2).
  Proof.
    intros H1 H2. induction H1 as [|t l Hcl Hop Hl IH|t l Hop Hl IH|t l Hgt Hl IH|a b c la lb Hop Hc Hb Ha IHa Hlb IHb];
      cbn [app].
    - exact H2.
    - now apply SN_plain.
    - now apply SN_lt.
    - now apply SN_gt.
    - rewrite <- app_assoc. cbn [app]. eapply SN_group; eassumption.
  Qed.

  Fixpoint strip (st : list N) : list N :=
    match st with
    | [] => []
    | x :: r => if x =? GT then strip r else st
    end.

  Lemma strip_cons c st : c <> GT -> strip (c :: st) = c :: st.
  Proof. intros Hc. cbn [strip]. now destruct (N.eqb_spec c GT). Qed.

  Lemma pop_through_strip c : c <> GT -> forall st s,
    strip st = c :: s -> pop_through c st = Some s.
  Proof.
    intros Hc. induction st as [|x r IH]; simpl; intros s H; [discriminate|].
    destruct (N.eqb_spec x GT) as [->|Hx].
    - destruct (N.eqb_spec c GT); [contradiction|]. now apply IH.
    - inversion H; subst. now rewrite N.eqb_refl.
  Qed.

  Lemma strip_nonnil st : strip st <> [] -> st <> [].
  Proof. destruct st; simpl; congruence. Qed.

  Lemma strip_closer_in c st s : strip st = c :: s -> In c st.
  Proof.
    induction st as [|x r IH]; simpl; [discriminate|].
    destruct (N.eqb_spec x GT); intros H.
    - right. now apply IH.
    - inversion H; subst. now left.
  Qed.

  (* what the loop does once the closer [b] of the entry it closes is read *)
  Definition closed (s : list N) (b : T) (acc rest : list T) : res (list T * list T) :=
    match s with [] => Ok (rev (b :: acc), rest) | _ => consume ty s (b :: acc) rest end.

  Lemma consume_pop c b s acc rest :
    is_closer c = true -> ty b = c -> consume ty (c :: s) acc (b :: rest) = closed s b acc rest.
  Proof. intros Hcl Hb. cbn [consume]. now rewrite Hb, Hcl, N.eqb_refl. Qed.

  (* a strict closer whose entry lies under pending '<' entries only: they are dropped with it *)
  Lemma consume_close c b st acc rest s :
    c <> GT -> is_closer c = true -> ty b = c -> strip st = c :: s ->
    consume ty st acc (b :: rest) = closed s b acc rest.
  Proof.
    intros Hc Hcl Hb Hst. destruct st as [|x r]; [discriminate|]. cbn [strip] in Hst.
    destruct (N.eqb_spec x GT) as [->|Hx].
    - cbn [consume]. rewrite Hb, Hcl. destruct (N.eqb_spec c GT); [contradiction|]. cbn [negb andb].
      now rewrite (pop_through_strip c Hc r s Hst).
    - inversion Hst; subst. now apply consume_pop.
  Qed.

  (* [soup] is read through, on any stack with a strict entry, and leaves the strict part of the stack as it was.
     The accumulator is written [rev_append soup acc], as the loop builds it: reading one more token is then a conversion. *)
  Definition skipped (soup : list T) : Prop :=
    forall stack acc rest, strip stack <> [] ->
    exists stack', strip stack' = strip stack /\
      consume ty stack acc (soup ++ rest) = consume ty stack' (rev_append soup acc) rest.

  Lemma skipped_group c b soup stack acc rest :
    skipped soup -> c <> GT -> is_closer c = true -> ty b = c ->
    consume ty (c :: stack) acc (soup ++ b :: rest) = closed stack b (rev_append soup acc) rest.
  Proof.
    intros Hs Hc Hcl Hb. destruct (Hs (c :: stack) acc (b :: rest)) as (st & E & ->).
    - now rewrite strip_cons.
    - rewrite strip_cons in E by exact Hc. now apply consume_close with c.
  Qed.

  Lemma consume_SN soup : SN soup -> skipped soup.
  Proof.
    induction 1 as [|t l Hcl Hop Hl IH|t l Hop Hl IH|t l Hgt Hl IH
                    |a b c l1 l2 Hop Hc Hb H1 IH1 H2 IH2];
      intros stack acc rest Hst; cbn [app consume].
    - now exists stack.
    - rewrite Hcl, Hop. now apply IH.
    - rewrite (opener_not_closer _ _ Hop), Hop.
      destruct (IH (GT :: stack) (t :: acc) rest) as (st' & E & ->); [exact Hst|]. now exists st'.
    - (* a '>' pops a '<' entry on top, which strip does not count, and a strict entry lies below it: the loop goes on;
         on a strict entry it is stray and the stack stays *)
      rewrite Hgt, GT_closer. destruct stack as [|x st]; [now elim Hst|].
      destruct (N.eqb_spec GT x) as [<-|Hx].
      + cbn [strip] in Hst. rewrite N.eqb_refl in Hst. destruct st as [|y st0]; [now elim Hst|].
        destruct (IH (y :: st0) (t :: acc) rest Hst) as (st' & E & ->). now exists st'.
      + rewrite N.eqb_refl. cbn [negb andb]. now apply IH.
    - rewrite (opener_not_closer _ _ Hop), Hop, <- app_assoc. cbn [app].
      rewrite (skipped_group c b l1 stack (a :: acc) (l2 ++ rest) IH1 Hc (closer_of_opener _ _ Hop) Hb).
      destruct stack as [|y st0]; [now elim Hst|]. cbn [closed rev_append]. rewrite rev_append_app.
      now apply IH2.
  Qed.

  Lemma consume_group_closed c b soup stack acc rest :
    SN soup -> c <> GT -> is_closer c = true -> ty b = c ->
    consume ty (c :: stack) acc (soup ++ b :: rest) = closed stack b (rev_append soup acc) rest.
  Proof. intros H. apply skipped_group. now apply consume_SN. Qed.

  Corollary consume_strict_group a b c soup rest :
    SN soup -> opener_of (ty a) = Some c -> c <> GT -> ty b = c ->
    consume ty [c] [a] (soup ++ b :: rest) = Ok (a :: soup ++ [b], rest).
  Proof.
    intros Hs Hop Hc Hb. rewrite (consume_group_closed c b soup [] [a] rest Hs Hc (closer_of_opener _ _ Hop) Hb).
    cbn [closed rev]. now rewrite rev_rev_append.
  Qed.

  (* C13/C14 core: started after an opener of a strict kind, the function
     returns exactly at the matching closer, for every strict-nested soup *)
  Theorem consume_balanced_exact a b c soup rest :
    opener_of (ty a) = Some c -> c <> GT -> ty b = c -> SN soup ->
    consume_balanced ty [a] (soup ++ b :: rest) = Ok (a :: soup ++ [b], rest).
  Proof.
    intros Hop Hc Hb Hs. unfold consume_balanced. cbn [map rev app]. rewrite Hop.
    exact (consume_strict_group a b c soup rest Hs Hop Hc Hb).
  Qed.

  Lemma consume_contiguous : forall toks stack acc c r,
    consume ty stack acc toks = Ok (c, r) -> rev acc ++ toks = c ++ r.
  Proof.
    induction toks as [|t l IH]; intros stack acc c r; cbn [consume]; [discriminate|].
    assert (Hstep : forall st, consume ty st (t :: acc) l = Ok (c, r) -> rev acc ++ t :: l = c ++ r).
    { intros st H. apply IH in H. cbn [rev] in H. now rewrite <- app_assoc in H. }
    assert (Hret : Ok (rev (t :: acc), l) = Ok (c, r) -> rev acc ++ t :: l = c ++ r).
    { intros H. inversion H; subst. cbn [rev]. now rewrite <- app_assoc. }
    destruct (is_closer (ty t)).
    - destruct stack as [|e st]; [discriminate|].
      destruct (ty t =? e).
      + destruct st; [exact Hret|apply Hstep].
      + destruct (negb (ty t =? GT) && negb (e =? GT)); [discriminate|].
        destruct (ty t =? GT); [apply Hstep|].
        destruct (pop_through (ty t) st) as [st'|]; [|apply Hstep].
        destruct st'; [exact Hret|apply Hstep].
    - destruct (opener_of (ty t)); apply Hstep.
  Qed.

  Definition stops_at (terms : list N) (rest : list T) : Prop :=
    match rest with [] => True | t :: _ => memN (ty t) terms = true end.

  Lemma value_until_split : forall fuel terms acc toks v r,
    value_until ty fuel terms acc toks = Ok (v, r) -> rev acc ++ toks = v ++ r /\ stops_at terms r.
  Proof.
    induction fuel as [|f IH]; intros terms acc toks v r; cbn [value_until].
    - destruct toks; [|discriminate]. intros H; inversion H; subst. now split.
    - destruct toks as [|t l]; [intros H; inversion H; subst; now split|].
      destruct (memN (ty t) terms) eqn:Hm; [intros H; inversion H; subst; now split|].
      destruct (opener_of (ty t)) as [c|].
      + destruct (consume ty [c] [t] l) as [[grp r']| | |] eqn:Hc; try discriminate.
        intros H. apply IH in H as [H Hs]. split; [|exact Hs]. apply consume_contiguous in Hc.
        rewrite rev_app_distr, rev_involutive, <- app_assoc, <- Hc in H. exact H.
      + destruct (is_closer (ty t) && negb (ty t =? GT)); [discriminate|].
        intros H. apply IH in H as [H Hs]. split; [|exact Hs]. cbn [rev] in H. now rewrite <- app_assoc in H.
  Qed.

  (* C14: nothing dropped, duplicated, reordered or taken from outside *)
  Theorem value_is_contiguous terms toks v r :
    consume_value_until ty terms toks = Ok (v, r) -> toks = v ++ r.
  Proof. intros H. now apply value_until_split in H. Qed.

  (* token-level expressions: plain tokens, strict groups over SN, angle
     groups whose content is again angle-nested *)
  Inductive AN : list T -> Prop :=
  | AN_nil : AN []
  | AN_plain t l : is_closer (ty t) = false -> opener_of (ty t) = None -> AN l -> AN (t :: l)
  | AN_group a b c l1 l2 : opener_of (ty a) = Some c -> c <> GT -> ty b = c ->
      SN l1 -> AN l2 -> AN (a :: l1 ++ b :: l2)
  | AN_angle a b l1 l2 : opener_of (ty a) = Some GT -> ty b = GT ->
      AN l1 -> AN l2 -> AN (a :: l1 ++ b :: l2).

  Lemma SN_angle a b l1 l2 : opener_of (ty a) = Some GT -> ty b = GT -> SN l1 -> SN l2 -> SN (a :: l1 ++ b :: l2).
  Proof. intros Hop Hb H1 H2. apply SN_lt; [exact Hop|]. apply SN_app; [exact H1|]. now apply SN_gt. Qed.

  Lemma AN_SN l : AN l -> SN l.
  Proof.
    induction 1 as [|t l Hcl Hop Hl IH|a b c l1 l2 Hop Hc Hb H1 H2 IH2|a b l1 l2 Hop Hb H1 IH1 H2 IH2].
    - constructor.
    - now apply SN_plain.
    - eapply SN_group; eassumption.
    - now apply SN_angle.
  Qed.

  Lemma consume_AN soup : AN soup ->
    forall stack acc rest, stack <> [] ->
      consume ty stack acc (soup ++ rest) = consume ty stack (rev_append soup acc) rest.
  Proof.
    induction 1 as [|t l Hcl Hop Hl IH|a b c l1 l2 Hop Hc Hb H1 H2 IH2
                    |a b l1 l2 Hop Hb H1 IH1 H2 IH2];
      intros stack acc rest Hst; cbn [app consume].
    - reflexivity.
    - rewrite Hcl, Hop. now apply IH.
    - rewrite (opener_not_closer _ _ Hop), Hop, <- app_assoc. cbn [app].
      rewrite (consume_group_closed c b l1 stack (a :: acc) (l2 ++ rest) H1 Hc (closer_of_opener _ _ Hop) Hb).
      destruct stack as [|y st0]; [now elim Hst|]. cbn [closed rev_append]. rewrite rev_append_app.
      now apply IH2.
    - rewrite (opener_not_closer _ _ Hop), Hop, <- app_assoc. cbn [app].
      rewrite IH1 by discriminate. rewrite (consume_pop GT b stack _ _ GT_closer Hb).
      destruct stack as [|y st0]; [now elim Hst|]. cbn [closed rev_append]. rewrite rev_append_app.
      now apply IH2.
  Qed.

  Corollary consume_angle_group a b soup rest :
    AN soup -> ty b = GT -> consume ty [GT] [a] (soup ++ b :: rest) = Ok (a :: soup ++ [b], rest).
  Proof.
    intros H Hb. rewrite (consume_AN soup H) by discriminate. rewrite (consume_pop GT b [] _ _ GT_closer Hb).
    cbn [closed rev]. now rewrite rev_rev_append.
  Qed.

  Inductive Expr (terms : list N) : list T -> Prop :=
  | Ex_nil : Expr terms []
  | Ex_plain t l : memN (ty t) terms = false -> opener_of (ty t) = None ->
      is_closer (ty t) && negb (ty t =? GT) = false ->      (* no stray closing bracket; a '>' may be an operator *)
      Expr terms l -> Expr terms (t :: l)
  | Ex_group a b c l1 l2 : memN (ty a) terms = false ->
      opener_of (ty a) = Some c -> c <> GT -> ty b = c ->
      SN l1 -> Expr terms l2 -> Expr terms (a :: l1 ++ b :: l2)
  | Ex_angle a b l1 l2 : memN (ty a) terms = false ->
      opener_of (ty a) = Some GT -> ty b = GT ->
      AN l1 -> Expr terms l2 -> Expr terms (a :: l1 ++ b :: l2).

  Lemma Expr_app terms l1 l2 : Expr terms l1 -> Expr terms l2 -> Expr terms (l1 ++ l2).
  Proof.
    intros H1 H2. induction H1 as [|t l Hm Hop Hnc Hl IH|a b c la lb Hm Hop Hc Hb Ha Hlb IH|a b la lb Hm Hop Hb Ha Hlb IH];
      cbn [app].
    - exact H2.
    - now apply Ex_plain.
    - rewrite <- app_assoc. cbn [app]. eapply Ex_group; eassumption.
    - rewrite <- app_assoc. cbn [app]. eapply Ex_angle; eassumption.
  Qed.

  (* a '>' that Ex_plain lets through as an operator is an SN_gt *)
  Lemma Expr_SN terms l : Expr terms l -> SN l.
  Proof.
    induction 1 as [|t l Hm Hop Hnc Hl IH|a b c l1 l2 Hm Hop Hc Hb H1 H2 IH2|a b l1 l2 Hm Hop Hb H1 H2 IH2].
    - constructor.
    - destruct (is_closer (ty t)) eqn:Hcl.
      + apply SN_gt; [|exact IH]. cbn [andb] in Hnc. apply negb_false_iff in Hnc. now apply N.eqb_eq in Hnc.
      + now apply SN_plain.
    - eapply SN_group; eassumption.
    - apply SN_angle; [exact Hop|exact Hb|now apply AN_SN|exact IH2].
  Qed.

  Definition whole (terms : list N) (e : list T) : Prop :=
    forall fuel acc rest, stops_at terms rest -> (length (e ++ rest) <= fuel)%nat ->
      value_until ty fuel terms acc (e ++ rest) = Ok (rev (rev_append e acc), rest).

  Lemma whole_group terms a b c l1 l2 :
    memN (ty a) terms = false -> opener_of (ty a) = Some c ->
    (forall rest, consume ty [c] [a] (l1 ++ b :: rest) = Ok (a :: l1 ++ [b], rest)) ->
    whole terms l2 -> whole terms (a :: l1 ++ b :: l2).
  Proof.
    intros Hm Hop Hgrp IH fuel acc rest Hstop Hf.
    destruct fuel as [|f]; [cbn in Hf; lia|].
    cbn [app value_until]. rewrite Hm, Hop, <- app_assoc. cbn [app]. rewrite Hgrp, <- rev_append_rev.
    cbn [rev_append]. rewrite !rev_append_app. apply IH; [exact Hstop|].
    cbn [app length] in Hf. rewrite !app_length in *. cbn [length] in Hf. lia.
  Qed.

  Lemma value_until_Expr terms e : Expr terms e -> whole terms e.
  Proof.
    induction 1 as [|t l Hm Hop Hnc Hl IH|a b c l1 l2 Hm Hop Hc Hb H1 H2 IH2
                    |a b l1 l2 Hm Hop Hb H1 H2 IH2].
    - intros fuel acc rest Hstop Hf. cbn [app].
      destruct fuel as [|f], rest as [|t r]; try reflexivity; [cbn in Hf; lia|].
      cbn [value_until]. now rewrite Hstop.
    - intros fuel acc rest Hstop Hf. destruct fuel as [|f]; [cbn in Hf; lia|]. cbn [app value_until].
      rewrite Hm, Hop, Hnc. apply IH; [exact Hstop|cbn in Hf; lia].
    - apply (whole_group terms a b c); [exact Hm|exact Hop| |exact IH2].
      intros rest. exact (consume_strict_group a b c l1 rest H1 Hop Hc Hb).
    - apply (whole_group terms a b GT); [exact Hm|exact Hop| |exact IH2].
      intros rest. exact (consume_angle_group a b l1 rest H1 Hb).
  Qed.

  (* C14: for every expression of the token-level grammar followed by a
     terminator (or end of input) the value is the whole expression *)
  Theorem value_is_whole terms e rest :
    Expr terms e -> stops_at terms rest ->
    consume_value_until ty terms (e ++ rest) = Ok (e, rest).
  Proof.
    intros He Hs. unfold consume_value_until.
    rewrite (value_until_Expr terms e He _ [] rest Hs (le_n _)). now rewrite rev_rev_append.
  Qed.

  (* C06: a closing bracket at depth 0 of a value that is neither a terminator
     nor the tolerant '>' is rejected (fix F30) *)
  Theorem stray_closer_in_value_rejected_lemma terms f acc t r :
    memN (ty t) terms = false -> is_closer (ty t) = true -> ty t <> GT ->
    value_until ty (S f) terms acc (t :: r) = ErrUnexpected (ty t).
  Proof.
    intros Hm Hc Hg. cbn [value_until]. rewrite Hm, Hc.
    destruct (opener_of (ty t)) eqn:Ho; [now rewrite (opener_not_closer _ _ Ho) in Hc|].
    destruct (N.eqb_spec (ty t) GT); [contradiction|reflexivity].
  Qed.

  (* C13 corollary: what follows a skipped region is independent of the region *)
  Corollary region_independence a b c soup1 soup2 rest :
    opener_of (ty a) = Some c -> c <> GT -> ty b = c -> SN soup1 -> SN soup2 ->
    option_map snd (match consume_balanced ty [a] (soup1 ++ b :: rest) with Ok x => Some x | _ => None end)
    = option_map snd (match consume_balanced ty [a] (soup2 ++ b :: rest) with Ok x => Some x | _ => None end).
  Proof.
    intros. rewrite !(consume_balanced_exact a b c) by assumption. reflexivity.
  Qed.

End Thms.

(* C06: a closer that does not match the innermost open bracket is rejected,
   unless one of the two is the tolerant '>' *)
Lemma mismatch_rejected (T : Type) (ty : T -> N) t r expected st acc :
  memN (ty t) end_balanced_tokens = true -> ty t <> expected -> ty t <> GT -> expected <> GT ->
  consume ty (expected :: st) acc (t :: r) = ErrUnexpected (ty t).
Proof.
  intros Hc H1 H2 H3. cbn [consume]. rewrite Hc.
  destruct (N.eqb_spec (ty t) expected); [contradiction|].
  destruct (N.eqb_spec (ty t) GT); [contradiction|].
  destruct (N.eqb_spec expected GT); [contradiction|]. reflexivity.
Qed.

Lemma consume_eof (T : Type) (ty : T -> N) stack acc : consume ty stack acc [] = ErrEOF.
Proof. reflexivity. Qed.
