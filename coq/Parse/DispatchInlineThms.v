(* _parse_inline and _parse_typedef as translated (regenerated, Gen/Dispatch.v), run by the
   interpreter of Parse/DispatchLang.v on symbolic remainders: `inline namespace` goes to the
   namespace parser flagged inline, any other `inline` to the declaration parser with every
   token; `typedef` to the declaration parser behind the keyword, flagged is_typedef. *)
From Coq Require Import NArith List.
Import ListNotations.
From CXV Require Import Gen.TokTy Parse.Declarator Parse.Toolkit Parse.DispatchLang Gen.Dispatch.
Open Scope N_scope.

Theorem inline_namespace_dispatch kw ns R :
  kty ns = T_namespace ->
  forall ic, run prog_parse_inline ic kw (ns :: R) = OCall F_namespace [RTok (Some ns); RDox] [(3, RBool true)] R.
Proof. intros H ic. rewrite (tk_eta ns _ H). reflexivity. Qed.

Theorem inline_declaration_dispatch kw x R ic :
  kty x <> T_namespace ->
  run prog_parse_inline ic kw (x :: R) = OCall F_declarations [RTok (Some kw); RDox] [] (x :: R).
Proof. intros H. unfold run, prog_parse_inline. cbn. apply N.eqb_neq in H. rewrite H. reflexivity. Qed.

Theorem typedef_dispatch kw x R ic :
  run prog_parse_typedef ic kw (x :: R) = OCall F_declarations [RTok (Some x); RDox] [(1, RBool true)] R.
Proof. reflexivity. Qed.

