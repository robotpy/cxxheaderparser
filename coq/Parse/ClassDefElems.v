(* Instances of the one-step elements of Parse/ClassDefThms.v: using directives /
   declarations / aliases, enum definitions and opaque enum declarations, as
   written by the printed forms of Parse/Using.v and Parse/EnumDecl.v, are
   statements the loop of Parse/ClassDef.v reads in one step: proved once for
   either scope ([one_step_at]: in a class body under the access in force, and at
   namespace scope), the using-directive at namespace scope only ([one_step_ns]);
   and class templates: a template header in front of a class definition tree. *)
From Coq Require Import NArith List Bool Lia.
Import ListNotations.
From CXV Require Import Gen.TokTy Gen.TopLoop Parse.Balanced Parse.Declarator Parse.DeclSpec Parse.DeclThms Parse.EnumList Parse.Specs
  Parse.ClassEnum Parse.FinishClass Parse.Bodies Parse.ClassDef Parse.ClassDefThms Parse.PQName Parse.Using Parse.EnumDecl Parse.Template
  Parse.TemplateStmt.
Open Scope N_scope.

Lemma body_step_using k n f dt ctx acc aid r :
  body (S k) n f dt ctx acc aid (ktok T_using :: r)
  = match using_stmt (in_class_of ctx) false f r with
    | DErr e => DErr e
    | DOk (u, r') => pushl [IUsing (acc_of ctx acc) u] (body k n f dt ctx acc aid r')
    end.
Proof. reflexivity. Qed.

(* `using [typename] [::] a::b::c;` *)
Theorem using_declaration_is_step n dt ctx (tn root : bool) nm q :
  one_step_at n dt ctx (ktok T_using :: pn2_toks (PNames tn [] root nm q) ++ [ktok SEMI])
              (fun acc => IUsing acc (UDecl (pn2_out (PNames false [] root nm q)))).
Proof.
  intros rest. apply ev_always. intros f k acc aid.
  cbn [app]. rewrite <- app_assoc. cbn [app]. rewrite body_step_using.
  now rewrite (using_declaration_any tn root nm q _ f rest).
Qed.

(* `using namespace [::] a::b;` *)
Theorem using_directive_is_statement n dt root nm q :
  one_step_ns n dt (ktok T_using :: udir_toks root nm q ++ [ktok SEMI]) (IUsing 0 (UDir root (nm :: q))).
Proof.
  intros rest. apply ev_always. intros f k aid.
  cbn [app]. rewrite <- app_assoc. cbn [app]. rewrite body_step_using.
  cbn [in_class_of]. now rewrite (using_directive_roundtrip root nm q f rest).
Qed.

(* `using A = type-id;` *)
Theorem using_alias_is_step n dt ctx a t :
  DeclSpec.wf t -> kind_of t <> KFn ->
  one_step_at n dt ctx (ktok T_using :: mkTk T_NAME a :: ktok EQ :: decl_toks t None ++ [ktok SEMI]) (fun acc => IUsing acc (UAlias a t)).
Proof.
  intros Hwf Hk rest.
  apply (ev_with (using_alias_roundtrip a t (in_class_of ctx) false rest Hwf Hk)), ev_always. intros f E k acc aid.
  cbn [app]. rewrite <- app_assoc. cbn [app]. rewrite body_step_using. now rewrite E.
Qed.

(* enum definitions: enum | enum class | enum struct  Name [: base] { enumerators } ; *)

Definition enum_key (key : list N) : Prop := key = [T_enum] \/ key = [T_enum; T_class] \/ key = [T_enum; T_struct].

Definition enum_toks (key : list N) (name : N) (p : option pname2) (items : list wenum) (tc : bool) : list tk :=
  map ktok key ++ mkTk T_NAME name :: base_toks p ++ ktok LBRACE :: enum_body_toks items tc.

Lemma enum_key_stmt_key key : enum_key key -> In key stmt_keys.
Proof. intros [-> | [-> | ->]]; cbn; tauto. Qed.

(* the class-statement head at `enum-key Name s ...`, [s] being ':' or '{': _parse_enum_decl is entered with [s] *)
Lemma enum_stmt_head key name s r :
  enum_key key -> s = ktok COLON \/ s = ktok LBRACE ->
  class_stmt_head false false (map ktok key ++ mkTk T_NAME name :: s :: r)
  = match enum_head false s r with
    | DErr e => CHErr e
    | DOk (Some q, None, r4) => CHEnumFwd mods0 key (Some name) q r4
    | DOk (b, Some items, r4) => CHEnum mods0 key (Some name) b items r4
    | DOk (None, None, _) => CHErr 3
    end.
Proof.
  intros Hk Hs. unfold class_stmt_head.
  rewrite (ckey_loop_named key name s r (enum_key_stmt_key key Hk)), spec_loop_stop by (destruct Hs as [-> | ->]; reflexivity).
  assert (Hce : class_enum key mods0 false false false (s :: r) = DOk (CEEnum s, r)).
  { destruct Hk as [-> | [-> | ->]], Hs as [-> | ->]; reflexivity. }
  now rewrite Hce.
Qed.

Lemma enum_head_base td p x r2 :
  base_ok p (x :: r2) ->
  enum_head td (ktok COLON) (pn2_toks p ++ x :: r2)
  = if is SEMI x then (if td then DErr 1 else DOk (Some (pn2_out p), None, r2))
    else if is LBRACE x then
      match enum_list (S (length r2)) [] r2 with
      | DErr e => DErr e
      | DOk (items, r4) => DOk (Some (pn2_out p), Some items, r4)
      end
    else DErr 1.
Proof.
  intros Hb. pose proof (first_not_compound p _ Hb) as Hc. destruct Hb as [Hok _].
  unfold enum_head. isc. cbn iota.
  destruct (pn2_toks p ++ x :: r2) as [|b0 r0] eqn:E; [contradiction|].
  now rewrite Hc, <- E, (pqname_roundtrip p _ Hok).
Qed.

Lemma enum_head_written key name p items tc X :
  enum_key key ->
  (match p with Some p => base_ok p (ktok LBRACE :: enum_body_toks items tc ++ X) | None => True end) ->
  Forall wenum_ok items ->
  class_stmt_head false false (enum_toks key name p items tc ++ X)
  = CHEnum mods0 key (Some name) (option_map pn2_out p) (map strip_e items) X.
Proof.
  intros Hk Hb H1. unfold enum_toks. rewrite <- app_assoc. cbn [app]. rewrite <- app_assoc. cbn [app].
  pose proof (enum_list_whole items tc X H1) as Hel.
  destruct p as [p|]; cbn [base_toks app option_map].
  - rewrite enum_stmt_head, (enum_head_base false p _ _ Hb) by tauto. isc. cbn iota. now rewrite Hel.
  - rewrite enum_stmt_head by tauto. unfold enum_head. isc. cbn iota. now rewrite Hel.
Qed.

Lemma enum_key_decl_head key name Z : enum_key key -> exists t r, map ktok key ++ mkTk T_NAME name :: Z = t :: r /\ is_decl_head t.
Proof. intros [E|[E|E]]; subst key; cbn [map app]; eexists; eexists; (split; [reflexivity|reflexivity]). Qed.

(* `enum [class] E [: base] { A, B = e, } ;` *)
Theorem enum_definition_is_step n dt ctx key name p items tc :
  enum_key key ->
  (forall X, match p with Some p => base_ok p (ktok LBRACE :: enum_body_toks items tc ++ X) | None => True end) ->
  Forall wenum_ok items ->
  one_step_at n dt ctx (enum_toks key name p items tc ++ [ktok SEMI])
              (fun acc => IEnum acc mods0 key name false false (option_map pn2_out p) (map strip_e items) FinNone).
Proof.
  intros Hk Hb H1 rest. apply ev_always. intros f k acc aid.
  rewrite <- app_assoc. cbn [app].
  pose proof (enum_head_written key name p items tc (ktok SEMI :: rest) Hk (Hb _) H1) as Hh.
  destruct (enum_key_decl_head key name (base_toks p ++ ktok LBRACE :: enum_body_toks items tc) Hk) as (t & r & E & Hd).
  unfold enum_toks in *. rewrite E in *. cbn [app] in *.
  rewrite (body_step_decl k n f dt ctx acc aid t _ Hd). unfold class_stmt_at. rewrite Hh. cbn iota beta.
  now rewrite finish_semicolon, andb_false_r by reflexivity.
Qed.

(* opaque enum declarations: enum [class|struct] E : base ; *)

Lemma enum_fwd_written key name p X :
  enum_key key -> base_ok p (ktok SEMI :: X) ->
  class_stmt_head false false (map ktok key ++ mkTk T_NAME name :: ktok COLON :: pn2_toks p ++ ktok SEMI :: X)
  = CHEnumFwd mods0 key (Some name) (pn2_out p) X.
Proof. intros Hk Hb. now rewrite enum_stmt_head, (enum_head_base false p _ _ Hb) by tauto. Qed.

Theorem opaque_enum_is_step n dt ctx key name p :
  enum_key key -> (forall X, base_ok p (ktok SEMI :: X)) ->
  one_step_at n dt ctx (map ktok key ++ mkTk T_NAME name :: ktok COLON :: pn2_toks p ++ [ktok SEMI])
              (fun acc => IEnumFwd acc key name (pn2_out p)).
Proof.
  intros Hk Hb rest. apply ev_always. intros f k acc aid.
  pose proof (enum_fwd_written key name p rest Hk (Hb rest)) as Hh.
  destruct (enum_key_decl_head key name (ktok COLON :: pn2_toks p ++ ktok SEMI :: rest) Hk) as (t & r & E & Hd).
  rewrite <- app_assoc. cbn [app]. rewrite <- app_assoc. cbn [app]. rewrite E in *.
  rewrite (body_step_decl k n f dt ctx acc aid t _ Hd). unfold class_stmt_at. now rewrite Hh.
Qed.

Lemma skipn_suffix {A} (X : list A) (k : A) (R : list A) :
  skipn (length (X ++ k :: R) - S (length R)) (X ++ k :: R) = k :: R.
Proof.
  rewrite app_length. cbn [length].
  replace (length X + S (length R) - S (length R))%nat with (length X) by lia.
  induction X as [|x q IH]; [reflexivity|exact IH].
Qed.

Lemma body_step_template k n f dt ctx acc aid toks r :
  toks = ktok LT :: r ->
  body (S k) n f dt ctx acc aid (ktok T_template :: toks)
  = match template_stmt n f toks with
    | DErr e => DErr e
    | DOk (kind, hs, r1) =>
        if kind =? K_DECL then class_stmt_at k n f dt ctx acc aid hs false (skipn (length toks - S (length r1)) toks) (DErr 4)
        else DErr 4
    end.
Proof. intros ->. reflexivity. Qed.

Lemma class_behind_template n dt ctx acc h :
  Forall tp_ok h -> class_behind n dt ctx acc (ktok T_template :: tlist_toks h) [h].
Proof.
  intros Hh key R Hkey.
  assert (Hnt : is T_template (ktok key) = false) by (destruct Hkey as [-> | [-> | ->]]; reflexivity).
  assert (Hkd : kind_of_tok (ktok key) = K_DECL) by (destruct Hkey as [-> | [-> | ->]]; reflexivity).
  apply (ev_with (template_stmt_one h (ktok key) R n Hh Hnt)), ev_always.
  intros f Ht k aid. rewrite Hkd in Ht. exists (DErr 4). cbn [app].
  now rewrite (body_step_template k n f dt ctx acc aid (tlist_toks h ++ ktok key :: R) _ eq_refl), Ht, N.eqb_refl, skipn_suffix.
Qed.

Theorem class_template_tree n dt h (w : wclass) T :
  Forall tp_ok h -> welem_ok n dt anon_base anon_base (WClass w) -> tail_ok T ->
  ev (fun f => body (S (S (esize (WClass w)))) n f dt None 0 0 (ktok T_template :: tlist_toks h ++ welem_toks (WClass w) ++ T))
     (DOk ([ITemplate [h] (wclass_spec 0 w)], 0, T)).
Proof.
  destruct w as [key name vs ws es]. intros Hh (Hkey & Hws & Hvs & Hin) HT.
  apply (ev_with (reads_single (reads_class (class_behind_template n dt None 0 h Hh) Hkey Hws Hvs
                                  (welems_read n dt _ es _ _ _ (le_n _) Hin)) T HT)), ev_always.
  intros f E. rewrite app_assoc. apply E. rewrite esize_class. lia.
Qed.
