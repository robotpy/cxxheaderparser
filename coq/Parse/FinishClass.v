(* Hand-written mirror of CxxParser._finish_class_or_enum: what follows the
   closing brace of a class / enum definition (or an opaque enum / forward
   form that reaches it).  A GNU attribute behind the brace is outside the
   model (code 4).  Without `typedef`, a ';' ends the statement -- and inside a
   class body an anonymous struct / union then becomes an implicit unnamed
   field.  Otherwise the declarators behind the brace are read by the loop of
   _parse_decl, every one of them on the SAME type object: the class name, or
   the anonymous id the definition was given, with the const / volatile written
   in front of the class key (F34).  So the models of Parse/DeclStmt.v (namespace
   scope, with the typedef flag) and Parse/MemberStmt.v (class scope) are reused;
   a typedef of a class inside a class body is outside the model.
   Tied to the code by the differential run of harness/props/c03.py (the real
   _finish_class_or_enum on the same token lists with a recording visitor). *)
From Coq Require Import NArith List Bool.
Import ListNotations.
From CXV Require Import Gen.TokTy Parse.Declarator Parse.DeclSpec Parse.DeclThms Parse.Specs Parse.DeclStmt Parse.MemberStmt.
Open Scope N_scope.

Definition head_is (c : N) (toks : list tk) : bool := match toks with t :: _ => is c t | [] => false end.

Inductive fin_result :=
| FinNone                                   (* `};` *)
| FinImplicitField                          (* `};` of an anonymous struct / union inside a class: an unnamed field of that type *)
| FinDecls (l : list entry)                 (* namespace scope: variables / functions / typedefs *)
| FinMembers (l : list mentry).             (* class scope: fields / methods *)

(* [bn]: the id of the class name or of the anonymous name; [c] [v]: const / volatile written in front of the class key;
   [anon]: the name is anonymous; [su]: the class key is struct or union; [cls] [dcls]: the enclosing class (for member
   declarators that look like its constructor) *)
Definition finish_class (n fuel : nat) (in_class td anon su : bool) (m : mods) (cls dcls bn : N) (c v : bool) (toks : list tk)
  : dres (fin_result * list tk) :=
  let b := TBase bn c v in
  let body :=
    if in_class then
      if td then DErr 4
      else match member_items n fuel (m_extern m) cls dcls bn b toks with
           | DOk (l, r) => DOk (FinMembers l, r)
           | DErr e => DErr e
           end
    else match decl_items n fuel td (m_mutable m) b toks with
         | DOk (l, r) => DOk (FinDecls l, r)
         | DErr e => DErr e
         end in
  if head_is T___attribute__ toks then DErr 4
  else if negb td && head_is SEMI toks then DOk (if in_class && anon && su then FinImplicitField else FinNone, tl toks)
  else body.

Definition entry_type (e : entry) : ty := match e with EVar _ t _ => t | EFn _ rt _ _ _ => rt end.

Lemma ditem_entry_base b c v it : base_of (entry_type (ditem_entry (TBase b c v) it)) = (b, c, v).
Proof. destruct it; cbn [ditem_entry entry_type]; now rewrite base_of_wrap. Qed.

Lemma last_entry_base b c v it le : base_of (entry_type (last_entry (TBase b c v) it le)) = (b, c, v).
Proof. destruct it, le; cbn [last_entry ditem_entry entry_type]; now rewrite base_of_wrap. Qed.

Lemma head_is_out c X : headb (fun t => negb (is c t)) X = true -> head_is c X = false.
Proof. destruct X as [|a r]; [reflexivity|]. cbn [headb head_is]. apply negb_true_iff. Qed.

Lemma finish_at_declarator n f in_class td anon su m cls dcls bn c v toks :
  starts_decl toks ->
  finish_class n f in_class td anon su m cls dcls bn c v toks =
  if in_class then
    if td then DErr 4
    else match member_items n f (m_extern m) cls dcls bn (TBase bn c v) toks with
         | DOk (l, r) => DOk (FinMembers l, r)
         | DErr e => DErr e
         end
  else match decl_items n f td (m_mutable m) (TBase bn c v) toks with
       | DOk (l, r) => DOk (FinDecls l, r)
       | DErr e => DErr e
       end.
Proof.
  intros H. unfold finish_class.
  rewrite !head_is_out by (apply (starts_decl_head _ _ H); reflexivity). now rewrite andb_false_r.
Qed.

(* `} d1, ..., dn ;` at namespace scope *)
Theorem finish_declarators bn c v anon su m cls dcls items last le rest :
  m_mutable m = false ->
  Forall ditem_ok items -> ditem_ok last -> last_ok last le ->
  ev (fun f => finish_class (S (length items)) f false false anon su m cls dcls bn c v (items_toks items last le ++ rest))
     (DOk (FinDecls (map (ditem_entry (TBase bn c v)) items ++ [last_entry (TBase bn c v) last le]), rest)).
Proof.
  intros Hmu Hall Hlast Hle.
  eapply ev_ext; [intros f; apply finish_at_declarator, items_start|]. rewrite Hmu.
  eapply ev_bind; [now apply (decl_items_gen false)|]. apply ev_const.
Qed.

(* `typedef struct { ... } d1, ..., dn ;` *)
Theorem finish_typedef_declarators bn c v anon su m cls dcls items last rest :
  Forall td_item_ok items -> td_item_ok last ->
  ev (fun f => finish_class (S (length items)) f false true anon su m cls dcls bn c v (items_toks items last LSemi ++ rest))
     (DOk (FinDecls (map (ditem_entry (TBase bn c v)) items ++ [ditem_entry (TBase bn c v) last]), rest)).
Proof.
  intros Hall Hlast.
  eapply ev_ext; [intros f; rewrite finish_at_declarator by apply items_start; cbn iota; now rewrite decl_items_td_mu|].
  eapply ev_bind; [now apply decl_items_td_rt|]. apply ev_const.
Qed.

(* the same inside a class body: `struct { ... } a, *b;` as members *)
Theorem finish_member_declarators bn c v anon su m cls dcls items last e rest :
  m_extern m = false ->
  Forall mditem_ok items -> mditem_ok last -> mlast_ok last e ->
  ev (fun f => finish_class (S (length items)) f true false anon su m cls dcls bn c v (mitems_toks items last e ++ rest))
     (DOk (FinMembers (map (mditem_entry (TBase bn c v)) items ++ [mlast_entry (TBase bn c v) last e]), rest)).
Proof.
  intros Hex Hall Hlast Hle.
  eapply ev_ext; [intros f; apply finish_at_declarator, mitems_start|]. rewrite Hex.
  eapply ev_bind; [now apply member_items_rt|]. apply ev_const.
Qed.

Theorem finish_semicolon n f in_class anon su m cls dcls bn c v semi rest :
  is SEMI semi = true ->
  finish_class n f in_class false anon su m cls dcls bn c v (semi :: rest)
  = DOk (if in_class && anon && su then FinImplicitField else FinNone, rest).
Proof.
  intros H. unfold finish_class. cbn [head_is tl].
  assert (Ha : is T___attribute__ semi = false).
  { unfold is in *. apply N.eqb_eq in H. rewrite H. reflexivity. }
  rewrite Ha, H. reflexivity.
Qed.

Corollary finish_declarators_share_the_type bn c v items last le :
  Forall (fun e => base_of (entry_type e) = (bn, c, v))
         (map (ditem_entry (TBase bn c v)) items ++ [last_entry (TBase bn c v) last le]).
Proof.
  apply Forall_app. split.
  - apply Forall_forall. intros e He. apply in_map_iff in He as (it & <- & _). apply ditem_entry_base.
  - constructor; [apply last_entry_base|constructor].
Qed.
