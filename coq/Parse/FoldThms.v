(* C12: algebra of the simple visitor's fold (Parse/Fold.v).  Folding a concatenation continues the fold; linkage blocks
   are transparent, `namespace a::b { }` is the nested blocks, a re-opened namespace appends to the same scope.
   [merge] is scope-wise concatenation; absorbing an element commutes with it, hence fold_from x f = merge x (fold_ns f). *)
From Coq Require Import NArith List.
Import ListNotations.
From CXV Require Import Parse.Fold.
Open Scope N_scope.

Lemma fold_from_app s f1 f2 : fold_from s (f1 ++ f2) = fold_from (fold_from s f1) f2.
Proof. apply fold_left_app. Qed.

Theorem extern_transparent_lemma s pre b post :
  fold_from s (pre ++ EExtern b :: post) = fold_from s (pre ++ b ++ post).
Proof.
  rewrite !fold_from_app. reflexivity.
Qed.

Theorem nested_ns_equiv_lemma s n r body :
  r <> [] -> absorb s (ENs (n :: r) body) = absorb s (ENs [n] [ENs r body]).
Proof.
  intros Hr. cbn [absorb ns_names at_path fold_left]. destruct s as [i c ch].
  f_equal. destruct r as [|m r']; [congruence|]. reflexivity.
Qed.

Lemma child_update_ext n u1 u2 : (forall x, u1 x = u2 x) ->
  forall l, child_update n u1 l = child_update n u2 l.
Proof.
  intros E. induction l as [|[k s] l IH]; cbn [child_update]; [now rewrite E|].
  destruct (k =? n); [now rewrite E|now rewrite IH].
Qed.

Lemma child_update_compose n u1 u2 u : (forall x, u2 (u1 x) = u x) ->
  forall l, child_update n u2 (child_update n u1 l) = child_update n u l.
Proof.
  intros E. induction l as [|[k s] l IH]; cbn [child_update].
  - now rewrite N.eqb_refl, E.
  - destruct (N.eqb_spec k n) as [->|Hk]; cbn [child_update].
    + now rewrite N.eqb_refl, E.
    + destruct (N.eqb_spec k n); [contradiction|]. now rewrite IH.
Qed.

Lemma at_path_compose : forall p u1 u2 u, (forall x, u2 (u1 x) = u x) ->
  forall s, at_path p u2 (at_path p u1 s) = at_path p u s.
Proof.
  induction p as [|n r IH]; intros u1 u2 u E s; cbn [at_path]; [apply E|].
  destruct s as [i c ch]. f_equal. apply child_update_compose. now apply IH.
Qed.

(* Stated for two adjacent blocks: with other declarations in between only the
   search of harness/props/c12.py speaks (its re-opened cases) *)
Theorem namespace_reopen_lemma s names b1 b2 :
  absorb (absorb s (ENs names b1)) (ENs names b2) = absorb s (ENs names (b1 ++ b2)).
Proof.
  cbn [absorb]. apply at_path_compose. intros x. now rewrite fold_left_app.
Qed.

Lemma absorb_item s k p : absorb s (EItem k p) = match s with NS i c ch => NS (i ++ [(k, p)]) c ch end.
Proof. reflexivity. Qed.

Fixpoint merge (a b : nscope) {struct b} : nscope :=
  match a, b with
  | NS i1 c1 ch1, NS i2 c2 ch2 =>
      NS (i1 ++ i2) (c1 ++ c2)
         ((fix mc (acc : list (N * nscope)) (l : list (N * nscope)) {struct l} : list (N * nscope) :=
             match l with
             | [] => acc
             | (n, s) :: r => mc (child_update n (fun old => merge old s) acc) r
             end) ch1 ch2)
  end.

Fixpoint mc (acc : list (N * nscope)) (l : list (N * nscope)) : list (N * nscope) :=
  match l with
  | [] => acc
  | (n, s) :: r => mc (child_update n (fun old => merge old s) acc) r
  end.

Lemma merge_unfold i1 c1 ch1 i2 c2 ch2 :
  merge (NS i1 c1 ch1) (NS i2 c2 ch2) = NS (i1 ++ i2) (c1 ++ c2) (mc ch1 ch2).
Proof.
  reflexivity.
Qed.

Definition keys (l : list (N * nscope)) : list N := map fst l.

(* hereditarily duplicate-free child maps (what a dict is) *)
Inductive wf : nscope -> Prop :=
| wf_NS i c ch : NoDup (keys ch) -> Forall (fun ks => wf (snd ks)) ch -> wf (NS i c ch).

Lemma merge_empty_r : forall s, merge s empty_ns = s.
Proof. destruct s as [i c ch]. unfold empty_ns. rewrite merge_unfold. cbn [mc]. now rewrite !app_nil_r. Qed.

Lemma child_update_keys n u m : forall l,
  In m (keys (child_update n u l)) <-> m = n \/ In m (keys l).
Proof.
  induction l as [|[k s] l IH]; cbn [child_update keys map fst].
  - split; (intros [E|[]]; left; now symmetry).
  - destruct (N.eqb_spec k n) as [->|Hk]; cbn [map fst].
    + split; [now right|]. intros [->|H]; [now left|exact H].
    + split.
      * intros [E|H]; [right; now left|]. apply IH in H as [E|H]; [now left|right; now right].
      * intros [E|[E|H]]; [right; apply IH; now left|now left|right; apply IH; now right].
Qed.

Lemma child_update_nodup n u : forall l, NoDup (keys l) -> NoDup (keys (child_update n u l)).
Proof.
  induction l as [|[k s] l IH]; intros H; cbn [child_update keys map fst].
  - constructor; [intros []|constructor].
  - inversion H as [|? ? Hk Hl]; subst.
    destruct (N.eqb_spec k n) as [->|Hkn]; cbn [map fst]; [now constructor|].
    constructor; [|now apply IH].
    intros Hin. apply child_update_keys in Hin as [E|Hin]; [congruence|now apply Hk].
Qed.

Lemma child_update_comm n f k g : n <> k -> forall l, In n (keys l) ->
  child_update n f (child_update k g l) = child_update k g (child_update n f l).
Proof.
  intros Hnk. induction l as [|[x s] l IH]; intros Hin; [destruct Hin|].
  cbn [keys map fst] in Hin. cbn [child_update].
  destruct (N.eqb_spec x k) as [Exk|Hxk]; destruct (N.eqb_spec x n) as [Exn|Hxn]; cbn [child_update].
  - congruence.
  - subst x. rewrite N.eqb_refl. destruct (N.eqb_spec k n); [congruence|]. reflexivity.
  - subst x. rewrite N.eqb_refl. destruct (N.eqb_spec n k); [congruence|]. reflexivity.
  - destruct (N.eqb_spec x n); [congruence|]. destruct (N.eqb_spec x k); [congruence|].
    f_equal. apply IH. destruct Hin as [E|Hin]; [congruence|exact Hin].
Qed.

Lemma mc_comm n f : forall r acc, In n (keys acc) -> ~ In n (keys r) ->
  child_update n f (mc acc r) = mc (child_update n f acc) r.
Proof.
  induction r as [|[k s] r IH]; intros acc Hin Hnot; [reflexivity|]. cbn [mc].
  cbn [keys map fst] in Hnot.
  assert (Hnk : n <> k) by (intros ->; apply Hnot; now left).
  rewrite IH.
  - f_equal. now apply child_update_comm.
  - apply child_update_keys. now right.
  - intros H. apply Hnot. now right.
Qed.

Definition commutes (U : nscope -> nscope) : Prop :=
  forall x y, wf y -> U (merge x y) = merge x (U y) /\ wf (U y).

Lemma wf_empty : wf empty_ns.
Proof. constructor; constructor. Qed.

Lemma commutes_merge U : commutes U -> forall x, U x = merge x (U empty_ns).
Proof.
  intros HU x. destruct (HU x empty_ns wf_empty) as [E _]. now rewrite merge_empty_r in E.
Qed.

Lemma child_update_fresh n u : forall l, ~ In n (keys l) -> child_update n u l = l ++ [(n, u empty_ns)].
Proof.
  induction l as [|[x t] l IH]; cbn [child_update app keys map fst]; intros H; [reflexivity|].
  destruct (N.eqb_spec x n) as [->|]; [exfalso; apply H; now left|].
  f_equal. apply IH. intros H'. apply H. now right.
Qed.

Lemma mc_fresh : forall ch pre, NoDup (keys (pre ++ ch)) ->
  Forall (fun ks => merge empty_ns (snd ks) = snd ks) ch -> mc pre ch = pre ++ ch.
Proof.
  induction ch as [|[k s] r IH]; intros pre Hnd Hall; cbn [mc]; [now rewrite app_nil_r|].
  inversion Hall as [|? ? Hs Hr]; subst. cbn [snd] in Hs.
  assert (Hk : ~ In k (keys pre)).
  { unfold keys in *. rewrite map_app in Hnd. apply NoDup_remove_2 in Hnd.
    intros H. apply Hnd, in_or_app. now left. }
  rewrite (child_update_fresh _ _ _ Hk), Hs, IH; [now rewrite <- app_assoc|now rewrite <- app_assoc|exact Hr].
Qed.

Lemma merge_empty_l : forall s, wf s -> merge empty_ns s = s.
Proof.
  fix IH 2. intros s [i c ch Hnd Hall]. unfold empty_ns. rewrite merge_unfold. cbn [app]. f_equal.
  apply (mc_fresh ch [] Hnd). clear Hnd.
  induction Hall as [|ks r Hs _ IHr]; [constructor|constructor; [exact (IH _ Hs)|exact IHr]].
Qed.

Lemma mc_update n U : commutes U -> forall ch2 ch1,
  NoDup (keys ch2) -> Forall (fun ks => wf (snd ks)) ch2 ->
  child_update n U (mc ch1 ch2) = mc ch1 (child_update n U ch2).
Proof.
  intros HU. induction ch2 as [|[k sk] r IH]; intros ch1 Hnd Hwf.
  - cbn [mc child_update]. apply child_update_ext, (commutes_merge U HU).
  - inversion Hnd as [|? ? Hk Hr]; subst. inversion Hwf as [|? ? Hsk Hwr]; subst. cbn [snd] in Hsk.
    cbn [child_update]. destruct (N.eqb_spec k n) as [->|Hkn]; cbn [mc].
    + rewrite mc_comm; [|apply child_update_keys; now left|exact Hk].
      f_equal. apply child_update_compose. intros x. now destruct (HU x sk Hsk).
    + apply IH; assumption.
Qed.

Lemma wf_child_update n U i c l :
  wf (NS i c l) -> (forall y, wf y -> wf (U y)) -> wf (NS i c (child_update n U l)).
Proof.
  intros Hl HU. inversion Hl as [? ? ? Hnd Hwf]; subst.
  constructor; [now apply child_update_nodup|].
  clear Hl Hnd. induction Hwf as [|[k s] r Hs Hr IH]; cbn [child_update].
  - constructor; [apply HU, wf_empty|constructor].
  - destruct (k =? n); constructor; cbn [snd] in *; auto.
Qed.

Lemma at_path_commutes : forall p U, commutes U -> commutes (at_path p U).
Proof.
  induction p as [|n r IH]; intros U HU; [exact HU|].
  specialize (IH U HU). intros x y Hy. destruct x as [i1 c1 ch1]. destruct y as [i2 c2 ch2].
  cbn [at_path]. rewrite !merge_unfold. cbn [at_path]. split.
  - f_equal. inversion Hy; subst. now apply mc_update.
  - apply wf_child_update; [exact Hy|]. intros y Hy'. now destruct (IH empty_ns y Hy').
Qed.

(* one induction over the forest: [P] of every element, [Q] of every body *)
Section ElemInd.
  Variables (P : elem -> Prop) (Q : list elem -> Prop).
  Hypothesis HI : forall k p, P (EItem k p).
  Hypothesis HN : forall names b, Q b -> P (ENs names b).
  Hypothesis HE : forall b, Q b -> P (EExtern b).
  Hypothesis HC : forall d b, P (EClass d b).
  Hypothesis H0 : Q [].
  Hypothesis HS : forall e r, P e -> Q r -> Q (e :: r).
  Fixpoint elem_ind' (e : elem) : P e :=
    let body := fix go (l : list elem) : Q l :=
                  match l with [] => H0 | x :: r => HS x r (elem_ind' x) (go r) end in
    match e with
    | EItem k p => HI k p
    | ENs names b => HN names b (body b)
    | EExtern b => HE b (body b)
    | EClass d b => HC d b
    end.
  Fixpoint body_ind' (l : list elem) : Q l :=
    match l with [] => H0 | x :: r => HS x r (elem_ind' x) (body_ind' r) end.
End ElemInd.

(* absorbing an element, or a whole body, into a merged scope = merging with the absorbed scope *)
Lemma fold_commutes b : commutes (fun s => fold_left absorb b s).
Proof.
  apply (body_ind' (fun e => commutes (fun s => absorb s e)) (fun b => commutes (fun s => fold_left absorb b s))).
  - intros k p [i1 c1 ch1] y [i2 c2 ch2 Hnd Hwf]. cbn [absorb]. rewrite !merge_unfold.
    split; [now rewrite app_assoc|now constructor].
  - intros names r Hr. exact (at_path_commutes (ns_names names) _ Hr).
  - intros r Hr. exact Hr.
  - intros d r [i1 c1 ch1] y [i2 c2 ch2 Hnd Hwf]. cbn [absorb]. rewrite !merge_unfold.
    split; [now rewrite app_assoc|now constructor].
  - intros x y Hy. split; [reflexivity|exact Hy].
  - intros e r He Hr x y Hy. cbn [fold_left]. destruct (He x y Hy) as [E W]. rewrite E. exact (Hr x (absorb y e) W).
Qed.

(* at [x := fold_ns f1], behind fold_from_app, this is fold_compositional of Props/C12.v *)
Theorem fold_from_merge x f : fold_from x f = merge x (fold_ns f).
Proof. exact (commutes_merge _ (fold_commutes f) x). Qed.
