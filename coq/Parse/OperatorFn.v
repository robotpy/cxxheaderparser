(* Hand-written mirror of how an overloaded-operator FUNCTION is read at
   namespace scope: specifiers and return type (_parse_type, validate(var_ok,
   meth_ok = false)), the pointer / reference part, the name `operator <tokens>`
   (Parse/OpName.v), '(' and then _parse_function / _parse_fn_end as for any
   function; without a body the statement must end with ';'.
   Tied to the code by the differential run of harness/props/c01.py. *)
From Coq Require Import NArith List.
Import ListNotations.
From CXV Require Import Gen.TokTy Parse.Declarator Parse.DeclSpec Parse.DeclThms Parse.Specs Parse.FnTail Parse.MemberStmt
  Parse.OpName Parse.OperatorMember.
Open Scope N_scope.

Record opfn := mkOpF { of_mods : mods; of_op : list tk; of_ret : ty; of_params : list (ty * option N); of_vararg : bool; of_tail : tail }.

Definition op_fn_stmt (fuel : nat) (toks : list tk) : dres (opfn * list tk) :=
  match parse_specs toks with
  | DErr e => DErr e
  | DOk (m, b, r) =>
      if auto_next r then DErr 4
      else if negb (validate true false m) then DErr 3
      else
        match cvptr fuel (TBase b (m_const m) (m_volatile m)) r with
        | DErr e => DErr e
        | DOk (d, r1) =>
            if is_fn d then DErr 3
            else
              match r1 with
              | o :: r2 =>
                  if is T_operator o then
                    match op_name r2 with
                    | DErr e => DErr e
                    | DOk (parts, r3) =>
                        match r3 with
                        | lp :: r4 =>
                            if is LP lp then
                              match params fuel r4 with
                              | DErr e => DErr e
                              | DOk (ps, va, r5) =>
                                  match fn_tail r5 with
                                  | DErr e => DErr e
                                  | DOk (tl, r6) =>
                                      if t_body tl then DOk (mkOpF m parts d ps va tl, r6)
                                      else match r6 with
                                           | s :: r7 => if is SEMI s then DOk (mkOpF m parts d ps va tl, r7) else DErr 1
                                           | [] => DErr 2
                                           end
                                  end
                              end
                            else DErr 1
                        | [] => DErr 1
                        end
                    end
                  else DErr 4
              | [] => DErr 4
              end
        end
  end.

Theorem op_fn_roundtrip pre post b ls o ps va th ne nep en rest :
  forallb spec_kw pre = true -> forallb spec_kw post = true ->
  has T_explicit (pre ++ post) = false -> has T_virtual (pre ++ post) = false ->
  forallb is_pfx ls = true -> legalL KB ls = true -> op_ok o ->
  layer_ok (LFn ps va) -> tail_ok th ne nep en (after_tail en rest) ->
  let m := apply_kws (pre ++ post) mods0 in
  let t := wrap (TBase b (m_const m) (m_volatile m)) ls in
  ev (fun f => op_fn_stmt f (kw_toks pre ++ nm_tok b :: kw_toks post ++ P ls [] ++ ktok T_operator :: op_toks o ++
                             ktok LP :: params_toks ps va ++ ktok RP :: spec_toks th ne nep ++ ending_toks en ++ after_tail en rest))
     (DOk (mkOpF m (op_toks o) t ps va (tail_of th ne en), rest)).
Proof.
  intros Hpre Hpost Hex Hvi Hpf Hleg Hop [_ Hprm] Htl m t.
  pose proof (spec_kws_app pre post Hpre Hpost) as Hk.
  eapply (typed_stmt_rt false _ pre post b ls); try assumption; try reflexivity.  (* by conversion: MemberStmt.typed_stmt *)
  { now apply validate_ns_fn. }
  cbn beta. isc. rewrite (op_name_rt o _ Hop). isc. eapply ev_bind; [apply Hprm|]. cbn beta iota.
  rewrite (fn_tail_roundtrip th ne nep en (after_tail en rest) Htl).
  destruct en; apply ev_const.
Qed.
