(* Hand-written mirror of CxxParser._parse_class_decl_base_clause (entered
   after the ':'), for bases named by a single identifier: each base starts
   from the class-key default access, `virtual` and an access keyword may come
   in either order, an ellipsis marks a pack, ',' continues the list.
   Attributes and qualified / templated base names are outside this model.
   Behind it the class head after the class name (CxxParser._parse_class_decl):
   class-virt-specifiers `final` / `explicit` (a list that starts with `explicit`
   is outside the model, see class_head), an optional base clause, then the '{'
   that opens the body.
   Tied to the code by the differential run of harness/props/c03.py. *)
From Coq Require Import NArith List Bool Lia.
Import ListNotations.
From CXV Require Import Gen.TokTy Parse.Declarator Parse.DeclSpec Parse.Toolkit Parse.EnumList.
Open Scope N_scope.

Record base := mkBase { b_access : N; b_name : N; b_virtual : bool; b_pack : bool }.

Definition is_access (t : tk) : bool := is T_public t || is T_private t || is T_protected t.

(* the inner `while tok_type in self._base_access_virtual` loop *)
Fixpoint base_mods (access : N) (virt : bool) (toks : list tk) : N * bool * list tk :=
  match toks with
  | t :: r =>
      if is T_virtual t then base_mods access true r
      else if is_access t then base_mods (kty t) virt r
      else (access, virt, toks)
  | [] => (access, virt, toks)
  end.

Fixpoint bases (n : nat) (default : N) (acc : list base) (toks : list tk) {struct n}
  : dres (list base * list tk) :=
  match n with
  | O => DErr 9
  | S n' =>
      let '(a, v, r) := base_mods default false toks in      (* access = default_access for EVERY base *)
      match r with
      | t :: r1 =>
          if is T_NAME t then
            let '(pack, r2) := match r1 with
                               | e :: r2 => if is T_ELLIPSIS e then (true, r2) else (false, r1)
                               | [] => (false, r1)
                               end in
            let b := mkBase a (kval t) v pack in
            match r2 with
            | c :: r3 => if is COMMA c then bases n' default (b :: acc) r3 else DOk (rev (b :: acc), r2)
            | [] => DOk (rev (b :: acc), r2)
            end
          else DErr 4
      | [] => DErr 2
      end
  end.

(* a base as written: explicit access or none, virtual before or after it *)
Record wbase := mkW { w_access : option N; w_name : N; w_virtual : bool; w_virtual_first : bool; w_pack : bool }.

Definition access_ok (w : wbase) : bool :=
  match w_access w with
  | Some a => (a =? T_public) || (a =? T_private) || (a =? T_protected)
  | None => true
  end.

Definition wbase_toks (w : wbase) : list tk :=
  let a := match w_access w with Some a => [ktok a] | None => [] end in
  let v := if w_virtual w then [ktok T_virtual] else [] in
  (if w_virtual_first w then v ++ a else a ++ v) ++ [mkTk T_NAME (w_name w)] ++ (if w_pack w then [ktok T_ELLIPSIS] else []).

Definition resolve (default : N) (w : wbase) : base :=
  mkBase (match w_access w with Some a => a | None => default end) (w_name w) (w_virtual w) (w_pack w).

Definition after_bases_ok (rest : list tk) : bool :=
  match rest with t :: _ => negb (is COMMA t) && negb (is T_ELLIPSIS t) | [] => true end.

Lemma base_mods_written (default : N) (w : wbase) (X : list tk) :
  access_ok w = true ->
  base_mods default false (wbase_toks w ++ X) =
    (b_access (resolve default w), w_virtual w,
     mkTk T_NAME (w_name w) :: (if w_pack w then [ktok T_ELLIPSIS] else []) ++ X).
Proof.
  destruct w as [a nm v vf p]. unfold access_ok, wbase_toks, resolve. cbn [w_access w_name w_virtual w_virtual_first w_pack b_access].
  intros Ha.
  assert (Hv : forall a0 vv r, base_mods a0 vv (ktok T_virtual :: r) = base_mods a0 true r) by reflexivity.
  assert (Hacc : forall a0 a1 vv r, (a1 =? T_public) || (a1 =? T_private) || (a1 =? T_protected) = true ->
            base_mods a0 vv (ktok a1 :: r) = base_mods a1 vv r).
  { intros a0 a1 vv r H.
    apply orb_prop in H as [H|H]; [apply orb_prop in H as [H|H]|]; apply N.eqb_eq in H; subst a1; reflexivity. }
  assert (Hn : forall a0 vv r, base_mods a0 vv (mkTk T_NAME nm :: r) = (a0, vv, mkTk T_NAME nm :: r)) by reflexivity.
  destruct a as [a|], v, vf; cbn [app]; rewrite ?Hv, ?Hacc, ?Hv, ?Hn by exact Ha; reflexivity.
Qed.

Lemma bases_one n default acc w Y :
  access_ok w = true -> headb (fun t => negb (is T_ELLIPSIS t)) Y = true ->
  bases (S n) default acc (wbase_toks w ++ Y) =
    match Y with
    | c :: r3 => if is COMMA c then bases n default (resolve default w :: acc) r3 else DOk (rev (resolve default w :: acc), Y)
    | [] => DOk (rev (resolve default w :: acc), Y)
    end.
Proof.
  intros Hw HY. cbn [bases]. rewrite (base_mods_written default w Y Hw). isc. cbn [kval].
  destruct w as [a nm v vf [|]]; cbn [w_pack app].
  - isc. reflexivity.
  - now rewrite (head_gate _ Y _ _ HY).
Qed.

Lemma bases_sepby default : forall ws w acc rest n,
  access_ok w = true -> forallb access_ok ws = true -> after_bases_ok rest = true -> (length ws < n)%nat ->
  bases n default acc (wbase_toks w ++ sepby (map wbase_toks ws) rest)
  = DOk (rev acc ++ map (resolve default) (w :: ws), rest).
Proof.
  induction ws as [|w2 q IH]; intros w acc rest n Hw Hq Hrest Hn.
  - destruct n as [|n]; [cbn [length] in Hn; lia|]. cbn [map sepby].
    destruct rest as [|t r]; [now rewrite bases_one|].
    cbn [after_bases_ok] in Hrest. apply andb_prop in Hrest as [Hc He]. apply negb_true_iff in Hc.
    rewrite bases_one by assumption. now rewrite Hc.
  - destruct n as [|n]; [cbn [length] in Hn; lia|]. cbn [map sepby].
    cbn [forallb] in Hq. apply andb_prop in Hq as [Hw2 Hq]. cbn [length] in Hn.
    rewrite bases_one by (exact Hw || reflexivity). isc.
    rewrite (IH w2 (resolve default w :: acc) rest n Hw2 Hq Hrest ltac:(lia)).
    cbn [rev map]. now rewrite <- app_assoc.
Qed.

Lemma bases_rt default ws rest n :
  forallb access_ok ws = true -> ws <> [] -> after_bases_ok rest = true -> (length ws <= n)%nat ->
  bases n default [] (join_comma (map wbase_toks ws) ++ rest) = DOk (map (resolve default) ws, rest).
Proof.
  destruct ws as [|w q]; [contradiction|]. cbn [forallb map length]. intros Hok _ Hrest Hn.
  apply andb_prop in Hok as [Hw Hq]. rewrite join_comma_app. now apply (bases_sepby default q w []).
Qed.

Theorem base_clause_roundtrip default ws rest :
  forallb access_ok ws = true -> ws <> [] -> after_bases_ok rest = true ->
  bases (length ws) default [] (join_comma (map wbase_toks ws) ++ rest) = DOk (map (resolve default) ws, rest).
Proof. intros H1 H2 H3. exact (bases_rt default ws rest (length ws) H1 H2 H3 (le_n _)). Qed.

Fixpoint virt_specs (final explicit : bool) (toks : list tk) : bool * bool * list tk :=
  match toks with
  | t :: r =>
      if is T_final t then virt_specs true explicit r
      else if is T_explicit t then virt_specs final true r
      else (final, explicit, toks)
  | [] => (final, explicit, toks)
  end.

Definition first_explicit (toks : list tk) : bool := match toks with t :: _ => is T_explicit t | [] => false end.

Definition class_head (default : N) (toks : list tk) : dres (bool * bool * list base * list tk) :=
  (* an `explicit` directly after the class name never gets here: the specifier loop of _parse_type takes it
     (and the declaration is then rejected); only `final ... explicit` reaches this code *)
  if first_explicit toks then DErr 4 else
  let '(fi, ex, r) := virt_specs false false toks in
  match r with
  | t :: r1 =>
      if is T_LIT_58 t then
        match bases (length r1) default [] r1 with
        | DOk (bs, r2) =>
            match r2 with
            | b :: r3 => if is LBRACE b then DOk (fi, ex, bs, r3) else DErr 1
            | [] => DErr 2
            end
        | DErr e => DErr e
        end
      else if is LBRACE t then DOk (fi, ex, [], r1)
      else DErr 1
  | [] => DErr 2
  end.

Definition vs_toks (vs : list bool) : list tk := map (fun f : bool => ktok (if f then T_final else T_explicit)) vs.

Lemma virt_specs_rt : forall vs fi ex X,
  hd_out [T_final; T_explicit] X = true ->
  virt_specs fi ex (vs_toks vs ++ X) = (fi || existsb (fun f => f) vs, ex || existsb negb vs, X).
Proof.
  induction vs as [|f q IH]; intros fi ex X HX.
  - cbn [vs_toks map app existsb]. rewrite !orb_false_r. destruct X as [|t r]; [reflexivity|].
    cbn [virt_specs]. now rewrite !(hd_out_is _ _ _ _ HX).
  - cbn [vs_toks map app virt_specs existsb]. fold (vs_toks q).
    destruct f; isc; rewrite IH by exact HX; cbn [negb];
      destruct fi, ex, (existsb (fun f => f) q), (existsb negb q); reflexivity.
Qed.

(* behind the class name: `[final [final|explicit]*] [: bases] {` *)
Theorem class_head_roundtrip default vs ws rest :
  forallb access_ok ws = true -> (match vs with f :: _ => f = true | [] => True end) ->
  class_head default (vs_toks vs ++ (match ws with [] => [] | _ => ktok T_LIT_58 :: join_comma (map wbase_toks ws) end) ++ ktok LBRACE :: rest)
  = DOk (existsb (fun f => f) vs, existsb negb vs, map (resolve default) ws, rest).
Proof.
  intros Hok Hfirst. unfold class_head.
  assert (Hfe : first_explicit (vs_toks vs ++ (match ws with [] => [] | _ => ktok T_LIT_58 :: join_comma (map wbase_toks ws) end) ++ ktok LBRACE :: rest) = false).
  { destruct vs as [|f q]; [destruct ws; reflexivity|]. rewrite Hfirst. reflexivity. }
  rewrite Hfe.
  rewrite virt_specs_rt.
  - cbn [orb]. destruct ws as [|w q].
    + cbn [app map]. isc. reflexivity.
    + cbn [app]. isc.
      rewrite (bases_rt default (w :: q) (ktok LBRACE :: rest) _ Hok ltac:(discriminate) eq_refl).
      * isc. reflexivity.
      * rewrite app_length. pose proof (join_comma_length (wbase_toks w) (map wbase_toks q)) as L.
        rewrite map_length in L. cbn [map length] in *. lia.
  - destruct ws; reflexivity.
Qed.
