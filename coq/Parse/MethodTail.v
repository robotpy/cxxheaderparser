(* Hand-written mirror of CxxParser._parse_method_end and
   _discard_ctor_initializer: what may follow the ')' of a method's parameter
   list inside a class -- cv / ref qualifiers, override / final, throw /
   noexcept, `= 0 | delete | default`, a constructor initialiser list, a body.
   The implementation compares token VALUES here: `override` is a NAME whose
   text is "override" and the pure-specifier is an octal literal whose text is
   "0"; the harness gives these two texts the fixed value ids below.
   Trailing return types and requires-clauses are outside this model (code 4).
   Tied to the code by the differential run of harness/props/c03.py. *)
From Coq Require Import NArith List Bool Lia.
Import ListNotations.
From CXV Require Import Gen.TokTy Parse.Balanced Parse.BalancedThms Parse.Declarator Parse.DeclSpec Parse.Toolkit Parse.EnumList Parse.Members.
Open Scope N_scope.

Definition VAL_override : N := 1.
Definition VAL_zero : N := 2.

Record mtail := mkMT {
  q_const : bool; q_volatile : bool; q_override : bool; q_final : bool;
  q_ref : N;                                   (* 0 none, 1 '&', 2 '&&' *)
  q_throw : option (list tk); q_noexcept : option (list tk);
  q_pure : bool; q_deleted : bool; q_default : bool; q_body : bool
}.
Definition mt0 := mkMT false false false false 0 None None false false false false.

Definition res_to_dres {A} (r : res A) (k : A -> dres (mtail * list tk)) : dres (mtail * list tk) :=
  match r with Ok a => k a | ErrEOF => DErr 2 | ErrUnexpected _ => DErr 1 | ErrInternal => DErr 3 end.

Fixpoint skip_to_group (n : nat) (toks : list tk) : dres (list tk) :=
  (* `if tok.type not in ("{", "("): tok = get_token(); continue` then discard the group *)
  match n with
  | O => DErr 9
  | S n' =>
      match toks with
      | t :: r =>
          if is LBRACE t then match discard kty LBRACE RBRACE 1 r with Ok r' => DOk r' | ErrEOF => DErr 2 | _ => DErr 3 end
          else if is LP t then match discard kty LP RP 1 r with Ok r' => DOk r' | ErrEOF => DErr 2 | _ => DErr 3 end
          else skip_to_group n' r
      | [] => DErr 2
      end
  end.

(* _discard_ctor_initializer, entered after the ':' ; returns what follows the function body *)
Fixpoint ctor_init (n : nat) (toks : list tk) : dres (list tk) :=
  match n with
  | O => DErr 9
  | S n' =>
      (* tok = get_token(); a leading '::' is skipped; decltype(...) is outside this model *)
      match toks with
      | t :: r =>
          let toks1 := if is T_DBL_COLON t then r else toks in
          match toks1 with
          | t1 :: _ =>
              if is T_decltype t1 then DErr 4
              else
                match skip_to_group (length toks1) toks1 with
                | DErr e => DErr e
                | DOk r2 =>
                    (* tok = get_token(); an ellipsis may follow *)
                    match r2 with
                    | e :: r3 =>
                        let r4 := if is T_ELLIPSIS e then r3 else r2 in
                        match r4 with
                        | s :: r5 =>
                            if is COMMA s then ctor_init n' r5
                            else if is LBRACE s then
                              match discard kty LBRACE RBRACE 1 r5 with Ok r' => DOk r' | ErrEOF => DErr 2 | _ => DErr 3 end
                            else DErr 1
                        | [] => DErr 2
                        end
                    | [] => DErr 2
                    end
                end
          | [] => DErr 2
          end
      | [] => DErr 2
      end
  end.

Fixpoint method_end (n : nat) (q : mtail) (toks : list tk) : dres (mtail * list tk) :=
  match n with
  | O => DErr 9
  | S n' =>
      match toks with
      | t :: r =>
          let '(mkMT c v o f rf th ne pu de df bo) := q in
          if is COLON t then
            match ctor_init (length r) r with DOk r' => DOk (mkMT c v o f rf th ne pu de df true, r') | DErr e => DErr e end
          else if is LBRACE t then
            match discard kty LBRACE RBRACE 1 r with
            | Ok r' => DOk (mkMT c v o f rf th ne pu de df true, r') | ErrEOF => DErr 2 | _ => DErr 3
            end
          else if is EQ t then
            match r with
            | x :: r' =>
                if is T_INT_CONST_OCT x && (kval x =? VAL_zero) then DOk (mkMT c v o f rf th ne true de df bo, r')
                else if is T_delete x then DOk (mkMT c v o f rf th ne pu true df bo, r')
                else if is T_default x then DOk (mkMT c v o f rf th ne pu de true bo, r')
                else DErr 1
            | [] => DErr 2
            end
          else if is T_const t then method_end n' (mkMT true v o f rf th ne pu de df bo) r
          else if is T_volatile t then method_end n' (mkMT c true o f rf th ne pu de df bo) r
          else if is T_NAME t && (kval t =? VAL_override) then method_end n' (mkMT c v true f rf th ne pu de df bo) r
          else if is T_final t then method_end n' (mkMT c v o true rf th ne pu de df bo) r
          else if is AMP t then method_end n' (mkMT c v o f 1 th ne pu de df bo) r
          else if is T_DBL_AMP t then method_end n' (mkMT c v o f 2 th ne pu de df bo) r
          else if is T_ARROW t then DErr 4
          else if is T_throw t then
            match r with
            | lp :: r1 =>
                if is LP lp then
                  match consume kty [RP] [lp] r1 with
                  | Ok (grp, r2) => method_end n' (mkMT c v o f rf (Some (middle grp)) ne pu de df bo) r2
                  | ErrEOF => DErr 2 | ErrUnexpected _ => DErr 1 | ErrInternal => DErr 3
                  end
                else DErr 1
            | [] => DErr 2
            end
          else if is T_noexcept t then
            match r with
            | lp :: r1 =>
                if is LP lp then
                  match consume kty [RP] [lp] r1 with
                  | Ok (grp, r2) => method_end n' (mkMT c v o f rf th (Some (middle grp)) pu de df bo) r2
                  | ErrEOF => DErr 2 | ErrUnexpected _ => DErr 1 | ErrInternal => DErr 3
                  end
                else method_end n' (mkMT c v o f rf th (Some []) pu de df bo) r
            | [] => DErr 2          (* get_token() at end of input *)
            end
          else if is T_requires t then DErr 4
          else DOk (q, toks)
      | [] => DErr 2
      end
  end.

Definition parse_method_end (toks : list tk) : dres (mtail * list tk) := method_end (S (length toks)) mt0 toks.

Inductive mq :=
| MqConst | MqVolatile | MqOverride | MqFinal
| MqRef (rvalue : bool)
| MqThrow (e : list tk)
| MqNoexcept (e : option (list tk)).        (* None: bare noexcept *)

Definition mq_toks (i : mq) : list tk :=
  match i with
  | MqConst => [ktok T_const] | MqVolatile => [ktok T_volatile]
  | MqOverride => [mkTk T_NAME VAL_override] | MqFinal => [ktok T_final]
  | MqRef rv => [ktok (if rv then T_DBL_AMP else AMP)]
  | MqThrow e => ktok T_throw :: ktok LP :: e ++ [ktok RP]
  | MqNoexcept (Some e) => ktok T_noexcept :: ktok LP :: e ++ [ktok RP]
  | MqNoexcept None => [ktok T_noexcept]
  end.

Definition apply_mq (i : mq) (q : mtail) : mtail :=
  let '(mkMT c v o f rf th ne pu de df bo) := q in
  match i with
  | MqConst => mkMT true v o f rf th ne pu de df bo
  | MqVolatile => mkMT c true o f rf th ne pu de df bo
  | MqOverride => mkMT c v true f rf th ne pu de df bo
  | MqFinal => mkMT c v o true rf th ne pu de df bo
  | MqRef rv => mkMT c v o f (if rv then 2 else 1) th ne pu de df bo
  | MqThrow e => mkMT c v o f rf (Some e) ne pu de df bo
  | MqNoexcept (Some e) => mkMT c v o f rf th (Some e) pu de df bo
  | MqNoexcept None => mkMT c v o f rf th (Some []) pu de df bo
  end.

Definition mq_ok (i : mq) : Prop :=
  match i with MqThrow e => SNk e | MqNoexcept (Some e) => SNk e | _ => True end.

(* the first token of what follows a bare noexcept must not be '(' *)
Definition head_not_lp (X : list tk) : Prop := match X with t :: _ => is LP t = false | [] => False end.

Lemma mq_step i q X n :
  mq_ok i -> (i = MqNoexcept None -> head_not_lp X) ->
  method_end (S n) q (mq_toks i ++ X) = method_end n (apply_mq i q) X.
Proof.
  intros Hok Hn. destruct q as [c v o f rf th ne pu de df bo].
  destruct i as [| | | |rv|e|[e|]]; cbn [mq_toks app method_end apply_mq]; try reflexivity.
  - destruct rv; reflexivity.
  - isc. rewrite <- app_assoc. cbn [app].
    rewrite consume_group by (reflexivity || discriminate || assumption). now rewrite middle_group.
  - isc. rewrite <- app_assoc. cbn [app].
    rewrite consume_group by (reflexivity || discriminate || assumption). now rewrite middle_group.
  - specialize (Hn eq_refl). destruct X as [|t r]; [contradiction|]. isc. now rewrite Hn.
Qed.

Record cinit := mkCI { ci_name : list tk; ci_brace : bool; ci_args : list tk; ci_pack : bool }.

Definition cinit_toks (c : cinit) : list tk :=
  ci_name c ++ (if ci_brace c then ktok LBRACE :: ci_args c ++ [ktok RBRACE] else ktok LP :: ci_args c ++ [ktok RP])
  ++ (if ci_pack c then [ktok T_ELLIPSIS] else []).

Definition no_opener (t : tk) : bool := negb (is LBRACE t || is LP t).

Definition cinit_ok (c : cinit) : Prop :=
  forallb no_opener (ci_name c) = true /\
  (match ci_name c with
   | t :: r => is T_decltype t = false /\ (is T_DBL_COLON t = true -> match r with t1 :: _ => is T_decltype t1 = false | [] => True end)
   | [] => True
   end) /\
  (if ci_brace c then bal tk kty LBRACE RBRACE (ci_args c) else bal tk kty LP RP (ci_args c)).

Definition cgroup (c : cinit) : list tk :=
  if ci_brace c then ktok LBRACE :: ci_args c ++ [ktok RBRACE] else ktok LP :: ci_args c ++ [ktok RP].
Definition cpack (c : cinit) : list tk := if ci_pack c then [ktok T_ELLIPSIS] else [].

Lemma skip_to_group_rt c : forall nm n X,
  forallb no_opener nm = true -> (length (nm ++ cgroup c ++ X) <= n)%nat ->
  (if ci_brace c then bal tk kty LBRACE RBRACE (ci_args c) else bal tk kty LP RP (ci_args c)) ->
  skip_to_group n (nm ++ cgroup c ++ X) = DOk X.
Proof.
  induction nm as [|t r IH]; intros n X Hn Hlen Hbal.
  - unfold cgroup in *. destruct (ci_brace c); (destruct n as [|n]; [inversion Hlen|]);
      cbn [app skip_to_group]; isc; rewrite <- app_assoc; cbn [app]; now rewrite discard_group.
  - destruct n as [|n]; [inversion Hlen|]. cbn [forallb] in Hn. apply andb_prop in Hn as [Ht Hr].
    unfold no_opener in Ht. apply negb_true_iff in Ht. apply orb_false_elim in Ht as [T1 T2].
    cbn [app skip_to_group]. rewrite T1, T2. apply IH; [exact Hr|exact (le_S_n _ _ Hlen)|exact Hbal].
Qed.

Lemma cinit_shape c Z : cinit_ok c -> exists t0 r0 nm,
  cinit_toks c ++ Z = t0 :: r0 /\
  (if is T_DBL_COLON t0 then r0 else t0 :: r0) = nm ++ cgroup c ++ cpack c ++ Z /\
  forallb no_opener nm = true /\ hd_out [T_decltype] (nm ++ cgroup c ++ cpack c ++ Z) = true.
Proof.
  intros (Hname & Hfirst & _). unfold cinit_toks. fold (cgroup c) (cpack c). rewrite <- !app_assoc.
  assert (HG : exists g0 gr, cgroup c ++ cpack c ++ Z = g0 :: gr /\ is T_DBL_COLON g0 = false /\
                             hd_out [T_decltype] (cgroup c ++ cpack c ++ Z) = true).
  { unfold cgroup. destruct (ci_brace c); eexists; eexists; (split; [reflexivity|split; reflexivity]). }
  destruct HG as (g0 & gr & EG & G1 & G2).
  destruct (ci_name c) as [|t r].
  - exists g0, gr, []. cbn [app]. now rewrite G1, <- EG.
  - cbn [forallb] in Hname. apply andb_prop in Hname as [Ht Hr]. destruct Hfirst as [Hd Hd2].
    exists t, (r ++ cgroup c ++ cpack c ++ Z). destruct (is T_DBL_COLON t) eqn:Edc.
    + exists r. repeat split; [exact Hr|]. specialize (Hd2 eq_refl). destruct r as [|t1 r1]; [exact G2|].
      cbn [app hd_out headb memN]. unfold is in Hd2. now rewrite Hd2.
    + exists (t :: r). repeat split.
      * cbn [forallb]. now rewrite Ht, Hr.
      * cbn [app hd_out headb memN]. unfold is in Hd. now rewrite Hd.
Qed.

Lemma one_init c (comma : bool) r5 n :
  cinit_ok c ->
  ctor_init (S n) (cinit_toks c ++ ktok (if comma then COMMA else LBRACE) :: r5) =
    if comma then ctor_init n r5
    else match discard kty LBRACE RBRACE 1 r5 with Ok r' => DOk r' | ErrEOF => DErr 2 | _ => DErr 3 end.
Proof.
  intros Hc. set (s := ktok (if comma then COMMA else LBRACE)).
  destruct (cinit_shape c (s :: r5) Hc) as (t0 & r0 & nm & -> & E1 & Hnm & Hd).
  cbn [ctor_init]. cbv zeta. rewrite E1.
  assert (Hs : skip_to_group (length (nm ++ cgroup c ++ cpack c ++ s :: r5)) (nm ++ cgroup c ++ cpack c ++ s :: r5)
               = DOk (cpack c ++ s :: r5)).
  { apply skip_to_group_rt; [exact Hnm|apply le_n|exact (proj2 (proj2 Hc))]. }
  destruct (nm ++ cgroup c ++ cpack c ++ s :: r5) as [|t1 r1]; [discriminate|].
  rewrite (hd_out_is _ _ _ T_decltype Hd eq_refl), Hs.
  unfold cpack, s. destruct (ci_pack c), comma; reflexivity.
Qed.

Lemma ctor_init_rt : forall inits c n soup rest,
  cinit_ok c -> Forall cinit_ok inits -> bal tk kty LBRACE RBRACE soup ->
  (length (cinit_toks c ++ sepby (map cinit_toks inits) (ktok LBRACE :: soup ++ ktok RBRACE :: rest)) <= n)%nat ->
  ctor_init n (cinit_toks c ++ sepby (map cinit_toks inits) (ktok LBRACE :: soup ++ ktok RBRACE :: rest)) = DOk rest.
Proof.
  induction inits as [|c2 q IH]; intros c n soup rest Hc Hq Hbal Hn.
  - rewrite app_length in Hn. cbn [map sepby length] in *. destruct n as [|n]; [lia|].
    rewrite (one_init c false _ n Hc). now rewrite discard_group.
  - rewrite app_length in Hn. cbn [map sepby length] in *. destruct n as [|n]; [lia|]. inversion Hq; subst.
    rewrite (one_init c true _ n Hc). apply IH; try assumption. lia.
Qed.

Inductive mend :=
| MeDecl | MePure | MeDelete | MeDefault
| MeBody (soup : list tk)
| MeCtor (inits : list cinit) (soup : list tk).

Definition mend_toks (e : mend) : list tk :=
  match e with
  | MeDecl => []
  | MePure => [ktok EQ; mkTk T_INT_CONST_OCT VAL_zero]
  | MeDelete => [ktok EQ; ktok T_delete]
  | MeDefault => [ktok EQ; ktok T_default]
  | MeBody soup => ktok LBRACE :: soup ++ [ktok RBRACE]
  | MeCtor inits soup => ktok COLON :: join_comma (map cinit_toks inits) ++ ktok LBRACE :: soup ++ [ktok RBRACE]
  end.

Definition apply_end (e : mend) (q : mtail) : mtail :=
  let '(mkMT c v o f rf th ne pu de df bo) := q in
  match e with
  | MeDecl => q
  | MePure => mkMT c v o f rf th ne true de df bo
  | MeDelete => mkMT c v o f rf th ne pu true df bo
  | MeDefault => mkMT c v o f rf th ne pu de true bo
  | MeBody _ | MeCtor _ _ => mkMT c v o f rf th ne pu de df true
  end.

Definition mstop_tok (t : tk) : bool :=
  negb (is COLON t || is LBRACE t || is EQ t || is T_const t || is T_volatile t || (is T_NAME t && (kval t =? VAL_override))
        || is T_final t || is AMP t || is T_DBL_AMP t || is T_ARROW t || is T_throw t || is T_noexcept t || is T_requires t || is LP t).

Definition mend_ok (e : mend) (rest : list tk) : Prop :=
  match e with
  | MeDecl => match rest with t :: _ => mstop_tok t = true | [] => False end
  | MeBody soup => bal tk kty LBRACE RBRACE soup
  | MeCtor inits soup => inits <> [] /\ Forall cinit_ok inits /\ bal tk kty LBRACE RBRACE soup
  | _ => True
  end.

Lemma mstop_view t r : mstop_tok t = true ->
  hd_out [COLON; LBRACE; EQ; T_const; T_volatile; T_final; AMP; T_DBL_AMP; T_ARROW; T_throw; T_noexcept; T_requires; LP] (t :: r) = true /\
  is T_NAME t && (kval t =? VAL_override) = false.
Proof.
  unfold mstop_tok. destruct (is T_NAME t && (kval t =? VAL_override)).
  - rewrite orb_true_r. discriminate.
  - intros H. split; [|reflexivity]. rewrite orb_false_r in H. rewrite <- H.
    cbn [hd_out headb]. rewrite <- nor_memN. cbn [existsb]. now rewrite ?orb_assoc, orb_false_r.
Qed.

Lemma ctor_toks_eq inits soup rest :
  mend_toks (MeCtor inits soup) ++ rest
  = ktok COLON :: (join_comma (map cinit_toks inits) ++ ktok LBRACE :: soup ++ ktok RBRACE :: rest).
Proof.
  cbn [mend_toks app]. f_equal. rewrite <- app_assoc. f_equal. cbn [app]. f_equal. now rewrite <- app_assoc.
Qed.

Lemma mend_rt e q rest n :
  mend_ok e rest ->
  method_end (S n) q (mend_toks e ++ rest) = DOk (apply_end e q, rest).
Proof.
  intros Hok. destruct q as [c v o f rf th ne pu de df bo].
  destruct e as [| | | |soup|inits soup]; cbn [mend_toks app apply_end].
  - destruct rest as [|t r]; [contradiction|]. destruct (mstop_view t r Hok) as [Hs Hn].
    cbn [method_end]. rewrite Hn. now rewrite !(hd_out_is _ _ _ _ Hs) by reflexivity.
  - reflexivity.
  - reflexivity.
  - reflexivity.
  - cbn [method_end]. isc. rewrite <- app_assoc. cbn [app]. now rewrite discard_group.
  - destruct Hok as (Hne & Hall & Hbal). destruct inits as [|ci q]; [contradiction|]. inversion Hall; subst.
    cbn [method_end]. isc. rewrite <- !app_assoc. cbn [app map]. rewrite join_comma_app, <- app_assoc. cbn [app].
    now rewrite ctor_init_rt by (assumption || apply le_n).
Qed.

Theorem method_end_roundtrip : forall items e rest q n,
  Forall mq_ok items -> mend_ok e rest -> (length (flat_map mq_toks items ++ mend_toks e ++ rest) < n)%nat ->
  method_end n q (flat_map mq_toks items ++ mend_toks e ++ rest)
  = DOk (apply_end e (fold_left (fun q i => apply_mq i q) items q), rest).
Proof.
  induction items as [|i r IH]; intros e rest q n Hall Hend Hn.
  - cbn [flat_map app fold_left]. destruct n as [|n]; [inversion Hn|]. now apply mend_rt.
  - inversion Hall as [|? ? Hi Hr]; subst. destruct n as [|n]; [inversion Hn|].
    cbn [flat_map fold_left] in Hn |- *. rewrite <- app_assoc in Hn |- *.
    rewrite mq_step; [apply IH; [exact Hr|exact Hend|]|exact Hi|].
    { (* the qualifier read is at least one token *)
      rewrite app_length in Hn. destruct i as [| | | |rv|e0|[e0|]]; cbn [mq_toks length] in Hn; lia. }
    intros ->.
    (* after a bare noexcept: the next qualifier, or the ending, or the stop token *)
    destruct r as [|i2 r2].
    + cbn [flat_map app]. destruct e as [| | | |soup|inits soup]; cbn [mend_toks app]; try reflexivity.
      cbn [mend_ok] in Hend. destruct rest as [|t r']; [contradiction|]. cbn [head_not_lp].
      exact (hd_out_is _ _ _ LP (proj1 (mstop_view t r' Hend)) eq_refl).
    + cbn [flat_map app]. destruct i2 as [| | | |rv|e0|[e0|]]; cbn [mq_toks app]; try reflexivity. destruct rv; reflexivity.
Qed.

Theorem parse_method_end_roundtrip items e rest :
  Forall mq_ok items -> mend_ok e rest ->
  parse_method_end (flat_map mq_toks items ++ mend_toks e ++ rest)
  = DOk (apply_end e (fold_left (fun q i => apply_mq i q) items mt0), rest).
Proof.
  intros H1 H2. unfold parse_method_end. apply method_end_roundtrip; [exact H1|exact H2|apply le_n].
Qed.
