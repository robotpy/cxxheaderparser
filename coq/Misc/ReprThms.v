(* C20: evaluating the compact repr reconstructs an equal value. *)
From Coq Require Import NArith List Bool Lia PeanoNat.
Import ListNotations.
From CXV Require Import Misc.ReprModel Gen.Schema.
Open Scope N_scope.

Definition finfo_ok (i : finfo) : bool :=
  (negb (f_cmp i) || f_repr i) &&
  ((f_repr i && f_cmp i) || match f_def i with Some _ => true | None => false end).

Definition schema_ok (s : list (N * list finfo)) : bool :=
  forallb (fun ci => forallb finfo_ok (snd ci)) s.

Lemma schema_ok_true : schema_ok schema = true.
Proof. vm_compute. reflexivity. Qed.

Section Thms.
  Variable sch : list (N * list finfo).
  Hypothesis Hok : schema_ok sch = true.

  Lemma lookup_in {A} k (l : list (N * A)) v : lookup k l = Some v -> In (k, v) l.
  Proof.
    induction l as [|[x y] l IH]; cbn [lookup]; [discriminate|].
    destruct (N.eqb_spec k x) as [->|]; intros H; [inversion H; subst; now left|right; auto].
  Qed.

  Lemma infos_ok c infos : lookup c sch = Some infos -> forallb finfo_ok infos = true.
  Proof.
    intros H. apply lookup_in in H. unfold schema_ok in Hok. rewrite forallb_forall in Hok.
    exact (Hok _ H).
  Qed.

  Inductive wt : nat -> val -> Prop :=
  | wt_atom n a : wt (S n) (Atom a)
  | wt_lst n l : Forall (wt n) l -> wt (S n) (Lst l)
  | wt_dct n l : Forall (fun kv => wt n (snd kv)) l -> wt (S n) (Dct l)
  | wt_obj n c fs infos : lookup c sch = Some infos -> length fs = length infos ->
      Forall (wt n) fs -> wt (S n) (Obj c fs).

  Definition good (f : nat) (x : val) : Prop :=
    exists x', eval sch f (nrepr sch f x) = Some x' /\ veq sch f x x' = true.

  Lemma list_good f l : Forall (good f) l ->
    exists l', eval_list (eval sch f) (map (nrepr sch f) l) = Some l' /\ eq_list (veq sch f) l l' = true.
  Proof.
    induction 1 as [|x l [x' [E V]] _ [l' [El Vl]]]; [exists []; split; reflexivity|].
    exists (x' :: l'). cbn [map eval_list eq_list]. rewrite E, El, V, Vl. split; reflexivity.
  Qed.

  Lemma dict_good f l : Forall (fun kv => good f (snd kv)) l ->
    exists l', eval_dict (eval sch f) (map (fun kv => (fst kv, nrepr sch f (snd kv))) l) = Some l' /\
               eq_dict (veq sch f) l l' = true.
  Proof.
    induction 1 as [|[k x] l [x' [E V]] _ [l' [El Vl]]]; [exists []; split; reflexivity|].
    exists ((k, x') :: l'). cbn [map eval_dict eq_dict fst snd] in *. rewrite E, El, V, Vl, N.eqb_refl. split; reflexivity.
  Qed.

  (* the fields nondefault_repr prints: repr and compare set, value not the default *)
  Definition printed (eqd : val -> val -> bool) (inf : finfo) (x : val) : bool :=
    f_repr inf && f_cmp inf && match f_def inf with Some d => negb (eqd x d) | None => true end.

  Lemma repr_fields_cons eqd rp i inf infos x fs :
    repr_fields eqd rp i (inf :: infos) (x :: fs)
    = (if printed eqd inf x then [(i, rp x)] else []) ++ repr_fields eqd rp (S i) infos fs.
  Proof.
    unfold printed. cbn [repr_fields].
    destruct (f_repr inf && f_cmp inf); [|reflexivity].
    destruct (f_def inf) as [d|]; [|reflexivity].
    now destruct (eqd x d).
  Qed.

  Lemma kw_get_repr_fields eqd rp i : forall infos fs j, (i < j)%nat ->
    kw_get i (repr_fields eqd rp j infos fs) = None.
  Proof.
    induction infos as [|inf infos IH]; intros fs j Hj; [reflexivity|].
    destruct fs as [|x fs]; [reflexivity|]. rewrite repr_fields_cons.
    destruct (printed eqd inf x); cbn [app kw_get].
    - destruct (Nat.eqb_spec i j); [lia|]. apply IH. lia.
    - apply IH. lia.
  Qed.

  Lemma eval_fields_skip ev i e kw : forall infos j, (i < j)%nat ->
    eval_fields ev ((i, e) :: kw) j infos = eval_fields ev kw j infos.
  Proof.
    induction infos as [|inf infos IH]; intros j Hj; [reflexivity|]. cbn [eval_fields kw_get].
    destruct (Nat.eqb_spec j i); [lia|]. rewrite IH by lia. reflexivity.
  Qed.

  Lemma eval_repr_fields_cons ev eqd rp i inf infos x fs :
    eval_fields ev (repr_fields eqd rp i (inf :: infos) (x :: fs)) i (inf :: infos)
    = match (if printed eqd inf x then ev (rp x) else f_def inf),
            eval_fields ev (repr_fields eqd rp (S i) infos fs) (S i) infos with
      | Some v, Some vs => Some (v :: vs)
      | _, _ => None
      end.
  Proof.
    rewrite repr_fields_cons. cbn [eval_fields].
    destruct (printed eqd inf x); cbn [app kw_get].
    - rewrite Nat.eqb_refl, eval_fields_skip by apply Nat.lt_succ_diag_r. reflexivity.
    - rewrite kw_get_repr_fields by apply Nat.lt_succ_diag_r. reflexivity.
  Qed.

  Lemma omitted_default eqd inf x : finfo_ok inf = true -> printed eqd inf x = false ->
    exists d, f_def inf = Some d /\ (if f_cmp inf then eqd x d else true) = true.
  Proof.
    unfold finfo_ok, printed.
    destruct (f_repr inf), (f_cmp inf), (f_def inf) as [d|]; cbn; try discriminate;
      intros _ H; exists d; split; try reflexivity.
    now destruct (eqd x d).
  Qed.

  Lemma fields_good f : forall infos fs i,
    forallb finfo_ok infos = true -> length fs = length infos -> Forall (good f) fs ->
    exists fs', eval_fields (eval sch f) (repr_fields (veq sch f) (nrepr sch f) i infos fs) i infos = Some fs' /\
                eq_fields (veq sch f) infos fs fs' = true.
  Proof.
    induction infos as [|inf infos IH]; intros fs i Hf Hl Hg.
    - destruct fs; [|discriminate]. exists []. split; reflexivity.
    - destruct fs as [|x fs]; [discriminate|]. injection Hl as Hl.
      cbn [forallb] in Hf. apply andb_prop in Hf as [Hinf Hf].
      inversion Hg as [|? ? [x' [Ex Vx]] Hg']; subst.
      destruct (IH fs (S i) Hf Hl Hg') as [fs' [Efs Vfs]].
      rewrite eval_repr_fields_cons, Efs. cbn [eq_fields].
      destruct (printed (veq sch f) inf x) eqn:P.
      + rewrite Ex. exists (x' :: fs'). rewrite Vx, Vfs. now destruct (f_cmp inf).
      + destruct (omitted_default _ inf x Hinf P) as (d & Ed & Vd).
        rewrite Ed. exists (d :: fs'). now rewrite Vd, Vfs.
  Qed.

  Theorem repr_eval_roundtrip_lemma : forall n v, wt n v -> good n v.
  Proof.
    induction n as [|n IH]; intros v H; [inversion H|].
    inversion H as [? a|? l Hl|? l Hl|? c fs infos Hc Hlen Hfs]; subst; unfold good; cbn [nrepr eval veq].
    - exists (Atom a). split; [reflexivity|apply N.eqb_refl].
    - destruct (list_good n l (Forall_impl _ IH Hl)) as [l' [E V]].
      exists (Lst l'). rewrite E. split; [reflexivity|exact V].
    - destruct (dict_good n l (Forall_impl _ (fun kv => IH (snd kv)) Hl)) as [l' [E V]].
      exists (Dct l'). rewrite E. split; [reflexivity|exact V].
    - rewrite Hc. cbn [eval]. rewrite Hc.
      destruct (fields_good n infos fs O (infos_ok c infos Hc) Hlen (Forall_impl _ IH Hfs)) as [fs' [E V]].
      exists (Obj c fs'). rewrite E. split; [reflexivity|]. now rewrite N.eqb_refl, V.
  Qed.
End Thms.
