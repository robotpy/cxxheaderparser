(* C16: re-lexing tokfmt's output.  The statements are over the representative
   tables, which are finite.  What is decided by evaluation (vm_compute over
   the regenerated lexer rules, spacing table and fuse pairs) is [seq_ok]: a
   check of each token of a table and of each ordered pair that tokfmt leaves
   unseparated.  That every sequence over the table, of any length, re-lexes
   to itself follows ([relex_seq]): what the lexer makes of a token does not
   depend on what stands behind its neighbour (Lex/SymLex.v), and what the
   stream shows of a line is put together from what it shows of its parts
   (abs_calm, vsee_app in Stream/TokBufThms.v). *)
From Coq Require Import NArith List Bool.
Import ListNotations.
From CXV Require Import Gen.TokTy Gen.Reps Lex.PlyLoop Lex.PlyLoopFacts Lex.SymLex Stream.TokBuf Stream.TokBufThms Fmt.TokFmt.
Open Scope N_scope.

Definition relex (toks : list vtok) : list vtok := abs (stream_of [102] (tokfmt toks)).

Fixpoint vtoks_eqb (a b : list vtok) : bool :=
  match a, b with
  | [], [] => true
  | (t1, v1) :: a', (t2, v2) :: b' => (t1 =? t2) && list_eqb v1 v2 && vtoks_eqb a' b'
  | _, _ => false
  end.

Lemma vtoks_eqb_eq : forall a b, vtoks_eqb a b = true -> a = b.
Proof.
  induction a as [|[t1 v1] a IH]; destruct b as [|[t2 v2] b]; cbn [vtoks_eqb]; intros H; try discriminate; [reflexivity|].
  apply andb_prop in H as [H H3]. apply andb_prop in H as [H1 H2].
  apply N.eqb_eq in H1. destruct (list_eqb_spec v1 v2); [|discriminate]. subst. f_equal. now apply IH.
Qed.

(* tokfmt in closed form: what it puts between two neighbours depends on the
   two alone ([gap_at] takes their spacing entries, which [seq_ok] looks up
   once for each token) *)
Definition gap_at (sx : N * N) (x : list N) (sy : N * N) (y : list N) : bool :=
  (3 <=? fst sy + snd sx) || (negb (match x with [] => true | _ => false end) && fuses x y).
Definition sep (x y : vtok) : list N :=
  if gap_at (spacing x) (snd x) (spacing y) (snd y) then [32] else [].

Definition behind (x : vtok) (r : list vtok) : list N := tokfmt_go (snd (spacing x)) (snd x) r.

Lemma behind_cons x y r : behind x (y :: r) = sep x y ++ snd y ++ behind y r.
Proof. unfold behind, sep, gap_at. cbn [tokfmt_go]. now destruct (spacing y). Qed.

Lemma tokfmt_behind x r : (3 <=? fst (spacing x) + 0) = false -> tokfmt (x :: r) = snd x ++ behind x r.
Proof. unfold tokfmt, behind. cbn [tokfmt_go]. destruct (spacing x) as [lx rx]. cbn [fst snd]. now intros ->. Qed.

(* [tokview] of Stream/TokBufThms.v and [vtok] are one type under two names *)
Definition views (s : list N) : list tokview := pviews (pieces (init_state [102]) s).

Lemma views_raw : forall ps off, map view (raw_of_pieces off ps) = pviews ps.
Proof.
  induction ps as [|[ty w ? ?|?|?] ps IH]; intros off; cbn [raw_of_pieces pviews flat_map map app];
    [|f_equal| |]; auto.
Qed.

Definition shows (w : list tokview) (toks : list vtok) : Prop := forallb vcalm w = true /\ vsee w = toks.

Lemma shows_app w a z b :
  shows w a -> shows z b -> open_end w && suffix_start z = false -> shows (w ++ z) (a ++ b).
Proof.
  intros [Cw Sw] [Cz Sz] H. split.
  - now rewrite forallb_app, Cw, Cz.
  - now rewrite (vsee_app _ _ H), Sw, Sz.
Qed.

Lemma relex_views toks toks' : shows (views (tokfmt toks)) toks' -> relex toks = toks'.
Proof.
  intros [C <-]. unfold relex, stream_of, lex, views, pieces in *. destruct lex_loop as [ps o]. cbn [fst] in *.
  rewrite <- (views_raw ps 0) in *. now apply abs_calm.
Qed.

Definition splits (h : list N) (w : list tokview) (k : list N) : Prop :=
  forall t, views (h ++ k ++ t) = w ++ views (k ++ t).

Definition cuts (h : list N) (w : list tokview) (k : list N) : bool :=
  match shead (length h) (h ++ k) k with Some w' => vtoks_eqb w' w | None => false end.

Lemma cuts_sound h w k : cuts h w k = true -> splits h w k.
Proof.
  unfold cuts. destruct (shead _ _ _) as [w'|] eqn:E; [|discriminate]. intros H t.
  apply vtoks_eqb_eq in H. subst w'. unfold views. rewrite app_assoc. exact (shead_sound _ t k _ _ _ E).
Qed.

Definition a_blank : tokview := (T_WHITESPACE, [32]).

(* Every token gets no blank where it stands first (tokfmt starts from
   last = 0); before a blank, behind a blank or before a neighbour it is not
   separated from it is lexed as it is on its own, and is then seen as itself;
   a literal does not stand right before something that starts like a suffix.
   [alone]: the token is lexed without a look at what follows, so its
   neighbours need not be tried one by one. *)
Definition seq_ok (l : list vtok) : bool :=
  let L := map (fun x => (x, spacing x, views (snd x))) l in
  forallb (fun '(x, sx, wx) =>
    negb (3 <=? fst sx + 0) && forallb vcalm wx && vtoks_eqb (vsee wx) [x]
    && cuts (snd x) wx [32] && cuts [32] [a_blank] (snd x)
    && let alone := cuts (snd x) wx [] in
       forallb (fun '(y, sy, wy) =>
         if gap_at sx (snd x) sy (snd y) then true
         else (if alone then true else cuts (snd x) wx (snd y))
              && negb (open_end wx && suffix_start wy)) L) L.

Section Seq.
Variable l : list vtok.
Hypothesis ok : seq_ok l = true.

Lemma seq_ok_at x : In x l ->
  let wx := views (snd x) in
  (3 <=? fst (spacing x) + 0) = false /\ shows wx [x] /\
  splits (snd x) wx [32] /\ splits [32] [a_blank] (snd x) /\
  forall y, In y l ->
    sep x y = [32] \/
    sep x y = [] /\ splits (snd x) wx (snd y) /\ open_end wx && suffix_start (views (snd y)) = false.
Proof.
  intros Hx wx. pose proof ok as K. unfold seq_ok in K. cbv zeta in K.
  apply (proj1 (forallb_forall _ _)) with (x := (x, spacing x, wx)) in K; [|exact (in_map _ _ _ Hx)].
  cbv beta iota in K. rewrite !andb_true_iff, negb_true_iff in K.
  destruct K as (((((Lx & Cx) & Sx) & X32) & B32) & F).
  apply vtoks_eqb_eq in Sx. repeat split; auto using cuts_sound. intros y Hy.
  apply (proj1 (forallb_forall _ _)) with (x := (y, spacing y, views (snd y))) in F; [|exact (in_map _ _ _ Hy)].
  cbv beta iota in F.
  unfold sep. destruct (gap_at _ _ _ _); [now left|right].
  apply andb_prop in F as [E B]. apply negb_true_iff in B. repeat split; [|exact B].
  destruct (cuts (snd x) wx []) eqn:A; [|now apply cuts_sound].
  intros t. exact (cuts_sound _ _ _ A (snd y ++ t)).
Qed.

(* the second conjunct only carries the induction: where x and y stand unseparated, shows_app asks how the views
   of all that follows x start, and seq_ok_at answers for views (snd y) alone *)
Lemma seq_views : forall r x, In x l -> Forall (fun y => In y l) r ->
  let V := views (snd x ++ behind x r) in
  shows V (x :: r) /\ suffix_start V = suffix_start (views (snd x)).
Proof.
  induction r as [|y r IH]; intros x Hx Hr; cbv zeta;
    destruct (seq_ok_at x Hx) as (_ & Sx & X32 & _ & Xy).
  - now rewrite app_nil_r.
  - inversion Hr as [|? ? Hy Hr']; subst. destruct (IH y Hy Hr') as (Sr & Ur).
    destruct (seq_ok_at y Hy) as (_ & _ & _ & B32 & _).
    assert (Nx : views (snd x) <> []) by (intros E; rewrite E in Sx; now destruct Sx).
    rewrite behind_cons. destruct (Xy y Hy) as [->|(-> & Xh & Xo)].
    + rewrite X32, B32, (suffix_start_app _ _ Nx). split; [|reflexivity].
      apply (shows_app _ [x]); [exact Sx| |apply andb_false_r].
      apply (shows_app [a_blank] []); [now split|exact Sr|reflexivity].
    + cbn [app]. rewrite Xh, (suffix_start_app _ _ Nx). split; [|reflexivity].
      apply (shows_app _ [x]); [exact Sx|exact Sr|]. now rewrite Ur.
Qed.

Theorem relex_seq toks : Forall (fun x => In x l) toks -> relex toks = toks.
Proof.
  destruct toks as [|x r]; [reflexivity|]. intros H. inversion H as [|? ? Hx Hr]; subst.
  destruct (seq_ok_at x Hx) as (Lx & _). destruct (seq_views r x Hx Hr) as (S & _).
  apply relex_views. now rewrite (tokfmt_behind x r Lx).
Qed.
End Seq.

Lemma reps_ok : seq_ok reps = true.
Proof. vm_compute. reflexivity. Qed.

Lemma existsb_vtok_In x l : existsb (fun y => vtoks_eqb [y] [x]) l = true -> In x l.
Proof.
  intros H. apply existsb_exists in H as (y & Hy & E). apply vtoks_eqb_eq in E. now injection E as <-.
Qed.

Lemma class_reps_incl x : In x class_reps -> In x reps.
Proof.
  intros H. apply existsb_vtok_In. revert x H. apply forallb_forall. vm_compute. reflexivity.
Qed.

Theorem relex_single_lemma a : In a reps -> relex [a] = [a].
Proof. intros Ha. apply (relex_seq reps reps_ok). auto. Qed.

Theorem relex_pairs_lemma a b : In a reps -> In b reps -> relex [a; b] = [a; b].
Proof. intros Ha Hb. apply (relex_seq reps reps_ok). auto. Qed.

Theorem relex_triples_lemma a b c :
  In a class_reps -> In b class_reps -> In c class_reps -> relex [a; b; c] = [a; b; c].
Proof. intros Ha Hb Hc. apply (relex_seq reps reps_ok). auto using class_reps_incl. Qed.

Fixpoint strip_layout (seps : list bool) (toks : list vtok) : list N :=
  match seps, toks with
  | sp :: seps', t :: r => (if sp then [32] else []) ++ snd t ++ strip_layout seps' r
  | _, _ => []
  end.

Theorem tokfmt_structure_lemma : forall toks last prev,
  exists seps, length seps = length toks /\ tokfmt_go last prev toks = strip_layout seps toks.
Proof.
  induction toks as [|t r IH]; intros last prev.
  - exists []. split; reflexivity.
  - cbn [tokfmt_go]. destruct (spacing t) as [l rr].
    destruct (IH rr (snd t)) as [seps [Hl Hs]].
    exists (((3 <=? l + last) || (negb (match prev with [] => true | _ => false end) && fuses prev (snd t))) :: seps).
    split; [cbn; now rewrite Hl|]. cbn [strip_layout]. now rewrite Hs.
Qed.
