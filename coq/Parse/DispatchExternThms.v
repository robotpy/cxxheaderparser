(* _parse_extern as translated (regenerated, Gen/Dispatch.v), run by the interpreter of
   Parse/DispatchLang.v on symbolic remainders: `extern "C" {` opens a linkage block;
   `extern "C" <declaration>` and plain `extern` go to the declaration parser with every
   token; `extern template` is an explicit instantiation; inside a class a linkage
   specification is a parse error. *)
From Coq Require Import NArith List.
Import ListNotations.
From CXV Require Import Gen.TokTy Parse.Declarator Parse.Toolkit Parse.DispatchLang Gen.Dispatch.
Open Scope N_scope.

Theorem extern_block_opens kw str lb R :
  kty str = T_STRING_LITERAL -> kty lb = T_LIT_123 ->
  run prog_parse_extern false kw (str :: lb :: R) = OOpenExtern (Some str) R.
Proof. intros H1 H2. rewrite (tk_eta str _ H1), (tk_eta lb _ H2). reflexivity. Qed.

Theorem extern_linkage_declaration kw str x R :
  kty str = T_STRING_LITERAL -> kty x <> T_LIT_123 ->
  run prog_parse_extern false kw (str :: x :: R) = OCall F_declarations [RTok (Some kw); RDox] [] (str :: x :: R).
Proof.
  intros H1 H2. rewrite (tk_eta str _ H1). unfold run, prog_parse_extern. cbn.
  apply N.eqb_neq in H2. rewrite H2. reflexivity.
Qed.

Theorem extern_template_is_instantiation kw t R :
  kty t = T_template ->
  run prog_parse_extern false kw (t :: R) = OCall F_template_instantiation [RDox; RBool true] [] R.
Proof. intros H. rewrite (tk_eta t _ H). reflexivity. Qed.

Theorem extern_declaration kw x R :
  kty x <> T_STRING_LITERAL -> kty x <> T_template ->
  run prog_parse_extern false kw (x :: R) = OCall F_declarations [RTok (Some kw); RDox] [] (x :: R).
Proof.
  intros H1 H2. unfold run, prog_parse_extern. cbn.
  apply N.eqb_neq in H1. apply N.eqb_neq in H2. rewrite H1, H2. reflexivity.
Qed.

Theorem extern_block_in_class_rejected kw x R :
  kty x = T_STRING_LITERAL \/ kty x = T_template ->
  run prog_parse_extern true kw (x :: R) = OErr 1.
Proof. intros [H|H]; rewrite (tk_eta x _ H); reflexivity. Qed.

