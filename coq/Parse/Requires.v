(* Hand-written mirror of CxxParser._parse_requires and
   _parse_requires_segment (entered after the `requires` keyword of a
   requires-clause): either `requires ( ... ) { ... }` (two balanced groups), or
   a sequence of primaries -- a parenthesized expression, or a possibly
   ::-rooted, ::-qualified name whose pieces are NAME [< ... >] or
   decltype( ... ) -- joined by one or two operator tokens of _expr_operators
   (as token types: Gen/ParserTables.v expr_operator_types, regenerated by
   lexing each operator with the real lexer).  The clause ends at the first
   token behind a primary that is not an operator, or at a single '='
   (`= delete`); that token is pushed back.
   The value reported is every token consumed EXCEPT the '::' between the
   pieces of a name (known finding F29, pinned by the test suite; the model
   mirrors the code).
   Tied to the code by the differential run of harness/props/c14.py. *)
From Coq Require Import NArith List Lia.
Import ListNotations.
From CXV Require Import Gen.TokTy Gen.ParserTables Parse.Balanced Parse.BalancedThms Parse.Declarator Parse.DeclSpec Parse.Toolkit
  Parse.EnumList.
Open Scope N_scope.

Definition LTk := T_LIT_60.
Definition is_op (t : tk) : bool := memN (kty t) expr_operator_types.

Definition next {A} (r : list tk) (k : tk -> list tk -> dres A) : dres A :=
  match r with t :: r' => k t r' | [] => DErr 2 end.

(* one piece of a name and the specialization behind it; [acc] = raw tokens so far, last first.
   Returns the new accumulator, the token behind the piece, and the rest *)
Definition piece_spec (acc : list tk) (tok : tk) (r : list tk) : dres (list tk * tk * list tk) :=
  let piece :=
    if is T_decltype tok then
      match r with
      | lp :: r1 => if is LP lp then lift (consume kty [RP] [lp] r1) (fun grp r2 => DOk (rev grp ++ tok :: acc, r2)) else DErr 1
      | [] => DErr 2
      end
    else if is T_NAME tok then DOk (tok :: acc, r)
    else DErr 1 in
  match piece with
  | DErr e => DErr e
  | DOk (acc1, r1) =>
      next r1 (fun t1 r2 =>
        if is LTk t1 then lift (consume kty [GT] [t1] r2) (fun grp r3 => next r3 (fun t2 r4 => DOk (rev grp ++ acc1, t2, r4)))
        else DOk (acc1, t1, r2))
  end.

(* the `while True` of _parse_requires_segment; [g] bounds the number of pieces *)
Fixpoint seg_loop (g : nat) (acc : list tk) (tok : tk) (r : list tk) : dres (list tk * tk * list tk) :=
  match g with
  | O => DErr 9
  | S g' =>
      match piece_spec acc tok r with
      | DErr e => DErr e
      | DOk (acc2, t2, r4) =>
          if is T_DBL_COLON t2 then next r4 (fun t3 r5 => seg_loop g' acc2 t3 r5)      (* the '::' is not recorded *)
          else DOk (acc2, t2, r4)
      end
  end.

Definition req_segment (g : nat) (acc : list tk) (tok : tk) (r : list tk) : dres (list tk * tk * list tk) :=
  if is T_DBL_COLON tok then next r (fun t r' => seg_loop g (tok :: acc) t r') else seg_loop g acc tok r.

(* one primary: the new accumulator, the token behind it, the rest *)
Definition primary_step (g : nat) (acc : list tk) (tok : tk) (r : list tk) : dres (list tk * tk * list tk) :=
  if is LP tok then lift (consume kty [RP] [tok] r) (fun grp r1 => next r1 (fun t r2 => DOk (rev grp ++ acc, t, r2)))
  else req_segment g acc tok r.

Definition lone_eq (t : tk) (r1 : list tk) : bool :=
  is EQ t && negb (match r1 with q :: _ => is EQ q | [] => false end).

(* the operator loop of _parse_requires; [f] bounds the number of primaries *)
Fixpoint req_loop (f g : nat) (acc : list tk) (tok : tk) (r : list tk) : dres (list tk * list tk) :=
  match f with
  | O => DErr 9
  | S f' =>
      match primary_step g acc tok r with
      | DErr e => DErr e
      | DOk (acc1, t, r1) =>
          if negb (is_op t) then DOk (rev acc1, t :: r1)
          else if lone_eq t r1 then DOk (rev acc1, t :: r1)
          else next r1 (fun t2 r2 =>
                 if is_op t2 then next r2 (fun t3 r3 => req_loop f' g (t2 :: t :: acc1) t3 r3)
                 else req_loop f' g (t :: acc1) t2 r2)
      end
  end.

Definition requires_clause (f g : nat) (toks : list tk) : dres (list tk * list tk) :=
  next toks (fun tok r =>
    if is T_requires tok then
      next r (fun lp r1 =>
        if is LP lp then
          lift (consume kty [RP] [lp] r1) (fun g1 r2 =>
            next r2 (fun lb r3 =>
              if is LBRACE lb then lift (consume kty [RBRACE] [lb] r3) (fun g2 r4 => DOk (tok :: g1 ++ g2, r4))
              else DErr 1))
        else DErr 1)
    else req_loop f g [] tok r).

Inductive piece :=
| PName (n : N) (spec : option (list tk))        (* NAME [ < spec > ] *)
| PDecltype (e : list tk).                       (* decltype ( e ) *)

Definition piece_toks (p : piece) : list tk :=
  match p with
  | PName n None => [mkTk T_NAME n]
  | PName n (Some e) => mkTk T_NAME n :: ktok LTk :: e ++ [ktok GT]
  | PDecltype e => ktok T_decltype :: ktok LP :: e ++ [ktok RP]
  end.

Definition piece_ok (p : piece) : Prop :=
  match p with
  | PName _ None => True
  | PName _ (Some e) => AN tk kty e
  | PDecltype e => SNk e
  end.

Definition has_spec (p : piece) : bool := match p with PName _ (Some _) => true | _ => false end.

(* p1 :: p2 :: ... :: pn as written, and as reported (the '::' between pieces dropped) *)
Fixpoint pieces_toks (p : piece) (q : list piece) : list tk :=
  match q with
  | [] => piece_toks p
  | p2 :: q' => piece_toks p ++ ktok T_DBL_COLON :: pieces_toks p2 q'
  end.
Fixpoint pieces_val (p : piece) (q : list piece) : list tk :=
  match q with
  | [] => piece_toks p
  | p2 :: q' => piece_toks p ++ pieces_val p2 q'
  end.
Fixpoint last_piece (p : piece) (q : list piece) : piece :=
  match q with [] => p | p2 :: q' => last_piece p2 q' end.

Inductive primary :=
| PrParen (e : list tk)
| PrName (root : bool) (p : piece) (q : list piece).

Definition root_toks (root : bool) : list tk := if root then [ktok T_DBL_COLON] else [].
Definition prim_toks (pr : primary) : list tk :=
  match pr with
  | PrParen e => ktok LP :: e ++ [ktok RP]
  | PrName root p q => root_toks root ++ pieces_toks p q
  end.
Definition prim_val (pr : primary) : list tk :=
  match pr with
  | PrParen e => ktok LP :: e ++ [ktok RP]
  | PrName root p q => root_toks root ++ pieces_val p q
  end.
Definition prim_ok (pr : primary) : Prop :=
  match pr with
  | PrParen e => SNk e
  | PrName _ p q => piece_ok p /\ Forall piece_ok q
  end.

(* what may stand behind a primary: not a '::' behind a name (it would continue the name), and not a '<' behind a name
   piece without template arguments (it would open them: the inherent ambiguity of '<' without name lookup) *)
Definition follows (pr : primary) (x : tk) : Prop :=
  match pr with
  | PrParen _ => True
  | PrName _ p q => is T_DBL_COLON x = false /\ (has_spec (last_piece p q) = false -> is LTk x = false)
  end.

Lemma consume_angle lt inner rest :
  kty lt = LTk -> AN tk kty inner ->
  consume kty [GT] [lt] (inner ++ ktok GT :: rest) = Ok (lt :: inner ++ [ktok GT], rest).
Proof. intros _ Han. now apply consume_angle_group. Qed.

Lemma piece_spec_rt p acc y Y :
  piece_ok p -> (has_spec p = false -> is LTk y = false) ->
  match piece_toks p ++ y :: Y with
  | tok :: r => piece_spec acc tok r
  | [] => DErr 0
  end = DOk (rev (piece_toks p) ++ acc, y, Y).
Proof.
  intros Hok Hy. destruct p as [n [e|]|e]; cbn [piece_toks app].
  - unfold piece_spec. isc.
    cbn [next]. isc.
    rewrite <- app_assoc. cbn [app].
    rewrite (consume_angle (ktok LTk) e (y :: Y) eq_refl Hok). cbn [lift next].
    cbn [rev]. now rewrite <- !app_assoc.
  - unfold piece_spec. isc.
    cbn [next]. rewrite (Hy eq_refl). reflexivity.
  - unfold piece_spec. isc. rewrite <- app_assoc. cbn [app].
    rewrite (consume_group LP RP e (y :: Y)) by (reflexivity || discriminate || assumption). cbn [lift next]. rewrite (Hy eq_refl).
    cbn [rev]. now rewrite <- !app_assoc.
Qed.

Lemma piece_toks_cons p : exists t r, piece_toks p = t :: r /\ is T_DBL_COLON t = false /\ is LP t = false /\ is T_requires t = false.
Proof. destruct p as [n [e|]|e]; eexists; eexists; repeat split; reflexivity. Qed.

Lemma pieces_toks_cons p q : exists t r, pieces_toks p q = t :: r /\ is T_DBL_COLON t = false /\ is LP t = false /\ is T_requires t = false.
Proof.
  destruct (piece_toks_cons p) as (t & r & E & H).
  destruct q as [|p2 q']; cbn [pieces_toks]; rewrite E; eexists; eexists; split; [reflexivity|exact H|reflexivity|exact H].
Qed.

Lemma seg_loop_rt : forall q p acc y Y g,
  piece_ok p -> Forall piece_ok q ->
  is T_DBL_COLON y = false -> (has_spec (last_piece p q) = false -> is LTk y = false) ->
  (S (length q) <= g)%nat ->
  match pieces_toks p q ++ y :: Y with
  | tok :: r => seg_loop g acc tok r
  | [] => DErr 0
  end = DOk (rev (pieces_val p q) ++ acc, y, Y).
Proof.
  induction q as [|p2 q' IH]; intros p acc y Y g Hp Hq Hy1 Hy2 Hg.
  - destruct g as [|g']; [cbn in Hg; lia|]. cbn [pieces_toks pieces_val last_piece] in *.
    pose proof (piece_spec_rt p acc y Y Hp Hy2) as H.
    destruct (piece_toks p ++ y :: Y) as [|tok r]; [discriminate H|].
    cbn [seg_loop]. rewrite H. now rewrite Hy1.
  - destruct g as [|g']; [cbn in Hg; lia|]. cbn [pieces_toks pieces_val last_piece] in *.
    inversion Hq as [|? ? Hp2 Hq']; subst.
    rewrite <- app_assoc. cbn [app].
    pose proof (piece_spec_rt p acc (ktok T_DBL_COLON) (pieces_toks p2 q' ++ y :: Y) Hp ltac:(reflexivity)) as H.
    destruct (piece_toks p ++ ktok T_DBL_COLON :: pieces_toks p2 q' ++ y :: Y) as [|tok r]; [discriminate H|].
    cbn [seg_loop]. rewrite H. isc.
    specialize (IH p2 (rev (piece_toks p) ++ acc) y Y g' Hp2 Hq' Hy1 Hy2 ltac:(cbn [length] in Hg; lia)).
    destruct (pieces_toks p2 q' ++ y :: Y) as [|t3 r5]; [discriminate IH|].
    cbn [next]. rewrite IH. now rewrite rev_app_distr, <- app_assoc.
Qed.

Definition pieces_count (pr : primary) : nat := match pr with PrParen _ => 0 | PrName _ _ q => S (length q) end.

Lemma primary_step_rt pr acc y Y g :
  prim_ok pr -> follows pr y -> (pieces_count pr <= g)%nat ->
  match prim_toks pr ++ y :: Y with
  | tok :: r => primary_step g acc tok r
  | [] => DErr 0
  end = DOk (rev (prim_val pr) ++ acc, y, Y).
Proof.
  intros Hok Hf Hg. destruct pr as [e|root p q]; cbn [prim_toks prim_val prim_ok follows pieces_count] in *.
  - cbn [app]. unfold primary_step. isc.
    rewrite <- app_assoc. cbn [app]. rewrite (consume_group LP RP e (y :: Y)) by (reflexivity || discriminate || assumption). cbn [lift next]. reflexivity.
  - destruct Hok as [Hp Hq]. destruct Hf as [Hy1 Hy2].
    pose proof (seg_loop_rt q p (root_toks root ++ acc) y Y g Hp Hq Hy1 Hy2 Hg) as H.
    destruct (pieces_toks_cons p q) as (t & r & E & N1 & N2 & _).
    destruct root; cbn [root_toks app] in *.
    + unfold primary_step. isc.
      unfold req_segment. isc.
      rewrite E in *. cbn [app next] in *. rewrite H. cbn [rev]. now rewrite <- app_assoc.
    + rewrite E in *. cbn [app] in *. unfold primary_step. rewrite N2. unfold req_segment. rewrite N1. exact H.
Qed.

(* a clause: a first primary, then (operator token(s), primary) links *)
Definition link := (tk * option tk * primary)%type.

Definition link_toks (l : link) : list tk :=
  let '(o1, o2, pr) := l in o1 :: (match o2 with Some o => [o] | None => [] end) ++ prim_toks pr.
Definition link_val (l : link) : list tk :=
  let '(o1, o2, pr) := l in o1 :: (match o2 with Some o => [o] | None => [] end) ++ prim_val pr.

Fixpoint clause_toks (pr : primary) (ls : list link) : list tk :=
  match ls with
  | [] => prim_toks pr
  | l :: q => prim_toks pr ++ fst (fst l) :: (match snd (fst l) with Some o => [o] | None => [] end) ++ clause_toks (snd l) q
  end.
Fixpoint clause_val (pr : primary) (ls : list link) : list tk :=
  match ls with
  | [] => prim_val pr
  | l :: q => prim_val pr ++ fst (fst l) :: (match snd (fst l) with Some o => [o] | None => [] end) ++ clause_val (snd l) q
  end.

(* the operator of a link, seen from the primary in front of it *)
Definition link_ok (prev : primary) (l : link) : Prop :=
  let '(o1, o2, pr) := l in
  is_op o1 = true /\ follows prev o1 /\
  (match o2 with Some o => is_op o = true | None => True end) /\
  (is EQ o1 = true -> match o2 with Some o => is EQ o = true | None => False end) /\
  prim_ok pr.

Fixpoint links_ok (prev : primary) (ls : list link) : Prop :=
  match ls with
  | [] => True
  | l :: q => link_ok prev l /\ links_ok (snd l) q
  end.

Fixpoint last_prim (pr : primary) (ls : list link) : primary :=
  match ls with [] => pr | l :: q => last_prim (snd l) q end.

Fixpoint max_pieces (pr : primary) (ls : list link) : nat :=
  match ls with [] => pieces_count pr | l :: q => Nat.max (pieces_count pr) (max_pieces (snd l) q) end.

Definition stop_ok (x : tk) (X : list tk) : Prop := is_op x = false \/ lone_eq x X = true.

Lemma prim_toks_cons pr : exists t r, prim_toks pr = t :: r /\ is_op t = false /\ is T_requires t = false.
Proof.
  destruct pr as [e|root p q]; cbn [prim_toks].
  - eexists; eexists; repeat split; reflexivity.
  - destruct root; cbn [root_toks app].
    + eexists; eexists; repeat split; reflexivity.
    + destruct p as [n [e|]|e]; destruct q; cbn [pieces_toks piece_toks app]; eexists; eexists; repeat split; reflexivity.
Qed.

Lemma clause_toks_cons pr ls : exists t r, clause_toks pr ls = t :: r /\ is_op t = false /\ is T_requires t = false.
Proof.
  destruct (prim_toks_cons pr) as (t & r & E & H).
  destruct ls as [|l q]; cbn [clause_toks]; rewrite E; eexists; eexists; (split; [reflexivity|exact H]).
Qed.

Lemma req_loop_stop f g acc tok r acc1 x X :
  primary_step g acc tok r = DOk (acc1, x, X) -> stop_ok x X ->
  req_loop (S f) g acc tok r = DOk (rev acc1, x :: X).
Proof.
  intros H Hst. cbn [req_loop]. rewrite H. destruct Hst as [Hno|Hlone].
  - now rewrite Hno.
  - rewrite Hlone. now destruct (is_op x).
Qed.

Lemma req_loop_link f g acc tok r acc1 o1 (o2 : option tk) tc R :
  primary_step g acc tok r = DOk (acc1, o1, (match o2 with Some o => [o] | None => [] end) ++ tc :: R) ->
  is_op o1 = true -> (match o2 with Some o => is_op o = true | None => True end) ->
  (is EQ o1 = true -> match o2 with Some o => is EQ o = true | None => False end) ->
  is_op tc = false ->
  req_loop (S f) g acc tok r = req_loop f g ((match o2 with Some o => [o] | None => [] end) ++ o1 :: acc1) tc R.
Proof.
  intros H Hop1 Hop2 Heq Ntc. cbn [req_loop]. rewrite H, Hop1. cbn [negb]. unfold lone_eq.
  destruct o2 as [o|]; cbn [app].
  - destruct (is EQ o1); [rewrite (Heq eq_refl)|]; cbn [negb andb next]; now rewrite Hop2.
  - destruct (is EQ o1); [destruct (Heq eq_refl)|]. cbn [andb next]. now rewrite Ntc.
Qed.

Lemma req_loop_rt : forall ls pr acc x X f g,
  prim_ok pr -> links_ok pr ls -> follows (last_prim pr ls) x -> stop_ok x X ->
  (S (length ls) <= f)%nat -> (max_pieces pr ls <= g)%nat ->
  match clause_toks pr ls ++ x :: X with
  | tok :: r => req_loop f g acc tok r
  | [] => DErr 0
  end = DOk (rev acc ++ clause_val pr ls, x :: X).
Proof.
  induction ls as [|[[o1 o2] pr2] q IH]; intros pr acc x X f g Hpr Hls Hfo Hst Hf Hg.
  - destruct f as [|f']; [cbn in Hf; lia|]. cbn [clause_toks clause_val last_prim max_pieces] in *.
    pose proof (primary_step_rt pr acc x X g Hpr Hfo Hg) as H.
    destruct (prim_toks pr ++ x :: X) as [|tok r]; [discriminate H|].
    rewrite (req_loop_stop f' g acc tok r _ x X H Hst). now rewrite rev_app_distr, rev_involutive.
  - destruct f as [|f']; [cbn in Hf; lia|].
    cbn [clause_toks clause_val last_prim max_pieces links_ok link_ok fst snd] in *.
    destruct Hls as [(Hop1 & Hfo1 & Hop2 & Heq & Hpr2) Hq].
    destruct (clause_toks_cons pr2 q) as (tc & rc & Ec & Nc & _).
    set (ops := match o2 with Some o => [o] | None => [] end) in *.
    (* behind the link the loop holds, last first, the operator token(s) on top of the value of pr on top of acc *)
    specialize (IH pr2 (ops ++ o1 :: rev (prim_val pr) ++ acc) x X f' g
                  Hpr2 Hq Hfo Hst ltac:(cbn [length] in Hf; lia) ltac:(lia)).
    rewrite Ec in *. cbn [app] in IH. rewrite <- app_assoc. cbn [app]. rewrite <- app_assoc. cbn [app].
    pose proof (primary_step_rt pr acc o1 (ops ++ tc :: rc ++ x :: X) g Hpr Hfo1 ltac:(lia)) as H.
    destruct (prim_toks pr ++ o1 :: ops ++ tc :: rc ++ x :: X) as [|tok r]; [discriminate H|].
    rewrite (req_loop_link f' g acc tok r _ o1 o2 tc _ H Hop1 Hop2 Heq Nc). fold ops. rewrite IH.
    (* rev (ops ++ o1 :: rev (prim_val pr) ++ acc) = rev acc ++ prim_val pr ++ o1 :: ops, ops being one token at most *)
    unfold ops. destruct o2; cbn [app rev]; rewrite !rev_app_distr, rev_involutive; cbn [rev app]; now rewrite <- !app_assoc.
Qed.

Theorem requires_clause_roundtrip pr ls x X f g :
  prim_ok pr -> links_ok pr ls -> follows (last_prim pr ls) x -> stop_ok x X ->
  (S (length ls) <= f)%nat -> (max_pieces pr ls <= g)%nat ->
  requires_clause f g (clause_toks pr ls ++ x :: X) = DOk (clause_val pr ls, x :: X).
Proof.
  intros Hpr Hls Hfo Hst Hf Hg.
  pose proof (req_loop_rt ls pr [] x X f g Hpr Hls Hfo Hst Hf Hg) as H.
  destruct (clause_toks_cons pr ls) as (t & r & E & _ & N). rewrite E in *. cbn [app] in *.
  unfold requires_clause. cbn [next]. rewrite N. exact H.
Qed.

(* `requires ( params ) { body }`: the keyword and the two groups, whole *)
Theorem requires_requires_roundtrip ps body X f g :
  SNk ps -> SNk body ->
  requires_clause f g (ktok T_requires :: ktok LP :: ps ++ ktok RP :: ktok LBRACE :: body ++ ktok RBRACE :: X)
  = DOk (ktok T_requires :: (ktok LP :: ps ++ [ktok RP]) ++ (ktok LBRACE :: body ++ [ktok RBRACE]), X).
Proof.
  intros Hps Hb. unfold requires_clause. cbn [next].
  isc.
  rewrite (consume_group LP RP ps) by (reflexivity || discriminate || assumption). cbn [lift next].
  isc.
  now rewrite (consume_group LBRACE RBRACE body X) by (reflexivity || discriminate || assumption).
Qed.

Definition unqualified (pr : primary) : Prop := match pr with PrParen _ => True | PrName _ _ q => q = [] end.

Lemma prim_val_unqualified pr : unqualified pr -> prim_val pr = prim_toks pr.
Proof. destruct pr as [e|root p q]; [reflexivity|]. cbn [unqualified]. intros ->. reflexivity. Qed.

Lemma clause_val_unqualified : forall ls pr,
  unqualified pr -> Forall (fun l : link => unqualified (snd l)) ls -> clause_val pr ls = clause_toks pr ls.
Proof.
  induction ls as [|l q IH]; intros pr Hpr Hls; cbn [clause_val clause_toks].
  - now apply prim_val_unqualified.
  - inversion Hls as [|? ? Hl Hq]; subst. rewrite (prim_val_unqualified pr Hpr). now rewrite (IH (snd l) Hl Hq).
Qed.

Corollary requires_clause_exact pr ls x X f g :
  prim_ok pr -> links_ok pr ls -> follows (last_prim pr ls) x -> stop_ok x X ->
  unqualified pr -> Forall (fun l : link => unqualified (snd l)) ls ->
  (S (length ls) <= f)%nat -> (max_pieces pr ls <= g)%nat ->
  requires_clause f g (clause_toks pr ls ++ x :: X) = DOk (clause_toks pr ls, x :: X).
Proof.
  intros Hpr Hls Hfo Hst Hu1 Hu2 Hf Hg.
  rewrite (requires_clause_roundtrip pr ls x X f g Hpr Hls Hfo Hst Hf Hg). now rewrite clause_val_unqualified.
Qed.
