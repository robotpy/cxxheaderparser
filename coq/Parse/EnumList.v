(* Hand-written mirror of CxxParser._parse_enumerator_list (entered after the
   '{'): NAME [attribute-specifier-seq] [= value] separated by ',', closed by
   '}', a trailing ',' allowed; values are read by
   _consume_value_until(",", "}") (Parse/Balanced.v); the attribute sequence
   is read by _consume_attribute_specifier_seq ([[ ... ]] and alignas( ... )
   groups, each a balanced group, any number of them) and is dropped from the
   result, as the code drops it.  Doc comments are outside this model.
   Tied to the code by the differential run of harness/props/c01.py and by the
   digest pin of Gen/PinsC01.v. *)
From Coq Require Import NArith List Bool Lia.
Import ListNotations.
From CXV Require Import Gen.TokTy Parse.Balanced Parse.BalancedThms Parse.Declarator Parse.DeclSpec Parse.Toolkit.
Open Scope N_scope.

Definition LBRACE := T_LIT_123.
Definition RBRACE := T_LIT_125.
Definition DLB := T_DBL_LBRACKET.
Definition DRB := T_DBL_RBRACKET.
Definition ALIGNAS := T_alignas.
Definition enum_terms : list N := [COMMA; RBRACE].

Definition enumerator := (N * option (list tk))%type.

Definition of_res {A} (r : res A) : dres A :=
  match r with
  | Ok x => DOk x
  | ErrEOF => DErr 2
  | ErrUnexpected _ => DErr 1
  | ErrInternal => DErr 3
  end.

(* _consume_attribute_specifier_seq(tok): t is the token already taken *)
Fixpoint attr_seq (n : nat) (t : tk) (r : list tk) {struct n} : dres (list tk) :=
  match n with
  | O => DErr 9
  | S n' =>
      let next (r1 : list tk) :=
        match r1 with
        | h :: r2 => if is DLB h || is ALIGNAS h then attr_seq n' h r2 else DOk r1
        | [] => DOk r1
        end in
      if is DLB t then
        match consume_balanced kty [t] r with
        | Ok (_, r1) => next r1
        | ErrEOF => DErr 2
        | ErrUnexpected _ => DErr 1
        | ErrInternal => DErr 3
        end
      else if is ALIGNAS t then
        match r with
        | p :: r0 =>
            if is LP p then
              match consume_balanced kty [p] r0 with
              | Ok (_, r1) => next r1
              | ErrEOF => DErr 2
              | ErrUnexpected _ => DErr 1
              | ErrInternal => DErr 3
              end
            else DErr 1
        | [] => DErr 2
        end
      else DOk (t :: r)
  end.

(* one enumerator behind its name: the enumerator, whether the '}' ended the list, the rest *)
Definition enum_item (name : N) (r : list tk) : dres (enumerator * bool * list tk) :=
  match r with
  | [] => DErr 2
  | s0 :: r0 =>
      let after :=
        if is DLB s0 then
          match attr_seq (S (length r0)) s0 r0 with
          | DOk (x :: r2) => DOk (x, r2)
          | DOk [] => DErr 2
          | DErr e => DErr e
          end
        else DOk (s0, r0) in
      match after with
      | DErr e => DErr e
      | DOk (s, r1) =>
          if is RBRACE s then DOk ((name, None), true, r1)
          else if is COMMA s then DOk ((name, None), false, r1)
          else if is EQ s then
            match consume_value_until kty enum_terms r1 with
            | Ok (v, r2) =>
                match r2 with
                | s2 :: r3 =>
                    if is RBRACE s2 then DOk ((name, Some v), true, r3)
                    else if is COMMA s2 then DOk ((name, Some v), false, r3)
                    else DErr 1
                | [] => DErr 2
                end
            | ErrEOF => DErr 2
            | ErrUnexpected _ => DErr 1
            | ErrInternal => DErr 3
            end
          else DErr 1
      end
  end.

Fixpoint enum_list (n : nat) (acc : list enumerator) (toks : list tk) {struct n}
  : dres (list enumerator * list tk) :=
  match n with
  | O => DErr 9
  | S n' =>
      match toks with
      | t :: r =>
          if is RBRACE t then DOk (rev acc, r)
          else if is T_NAME t then
            match enum_item (kval t) r with
            | DErr e => DErr e
            | DOk (e, true, r') => DOk (rev (e :: acc), r')
            | DOk (e, false, r') => enum_list n' (e :: acc) r'
            end
          else DErr 1
      | [] => DErr 2
      end
  end.

Inductive attr := ABr (soup : list tk) | AAl (soup : list tk).
Definition attr_toks (a : attr) : list tk :=
  match a with
  | ABr s => ktok DLB :: s ++ [ktok DRB]
  | AAl s => ktok ALIGNAS :: ktok LP :: s ++ [ktok RP]
  end.
Definition attr_ok (a : attr) : Prop := match a with ABr s | AAl s => SN tk kty s end.

(* a written enumerator: name, attributes (the first one, if any, a [[ ]] group), initialiser *)
Definition wenum := (N * list attr * option (list tk))%type.
Definition strip_e (w : wenum) : enumerator := (fst (fst w), snd w).
Definition wenum_toks (w : wenum) : list tk :=
  mkTk T_NAME (fst (fst w)) :: flat_map attr_toks (snd (fst w)) ++ match snd w with Some v => ktok EQ :: v | None => [] end.

Fixpoint enum_body_toks (items : list wenum) (trailing_comma : bool) : list tk :=
  match items with
  | [] => [ktok RBRACE]
  | [w] => wenum_toks w ++ (if trailing_comma then [ktok COMMA] else []) ++ [ktok RBRACE]
  | w :: q => wenum_toks w ++ ktok COMMA :: enum_body_toks q trailing_comma
  end.

Definition wenum_ok (w : wenum) : Prop :=
  Forall attr_ok (snd (fst w)) /\
  match snd (fst w) with [] => True | ABr _ :: _ => True | AAl _ :: _ => False end /\
  match snd w with Some v => Expr tk kty enum_terms v | None => True end.

Lemma stops_comma r : stops_at tk kty enum_terms (ktok COMMA :: r).
Proof. reflexivity. Qed.
Lemma stops_rbrace r : stops_at tk kty enum_terms (ktok RBRACE :: r).
Proof. reflexivity. Qed.

(* attr_seq's local [next], at the level of the whole list: go on while an attribute opens *)
Definition aseq (n : nat) (toks : list tk) : dres (list tk) :=
  match toks with
  | h :: r2 => if is DLB h || is ALIGNAS h then attr_seq n h r2 else DOk toks
  | [] => DOk toks
  end.

Lemma aseq_one n a Y : attr_ok a -> aseq (S n) (attr_toks a ++ Y) = aseq n Y.
Proof.
  intros Ha. destruct a as [soup|soup]; cbn [attr_ok attr_toks app aseq attr_seq] in *; isc.
  - rewrite <- app_assoc. cbn [app].
    now rewrite (consume_balanced_exact tk kty (ktok DLB) (ktok DRB) DRB soup _ eq_refl ltac:(discriminate) eq_refl Ha).
  - rewrite <- app_assoc. cbn [app].
    now rewrite (consume_balanced_exact tk kty (ktok LP) (ktok RP) RP soup _ eq_refl ltac:(discriminate) eq_refl Ha).
Qed.

Lemma aseq_rt ats rest : Forall attr_ok ats -> hd_out [DLB; ALIGNAS] rest = true ->
  forall n, (length (flat_map attr_toks ats ++ rest) <= n)%nat -> aseq n (flat_map attr_toks ats ++ rest) = DOk rest.
Proof.
  intros Hats Hrest. induction Hats as [|a q Ha _ IH]; intros n Hn.
  - destruct rest as [|h r]; [reflexivity|]. cbn [flat_map app aseq]. now rewrite !(hd_out_is _ _ _ _ Hrest) by reflexivity.
  - cbn [flat_map] in Hn |- *. rewrite <- app_assoc in Hn |- *. rewrite app_length in Hn.
    assert (H1 : (0 < length (attr_toks a))%nat) by (destruct a; cbn [attr_toks length]; lia).
    destruct n as [|n]; [lia|]. rewrite aseq_one by exact Ha. apply IH. lia.
Qed.

Lemma enum_item_attrs n ats tailp : Forall attr_ok ats ->
  match ats with AAl _ :: _ => False | _ => True end -> hd_out [DLB; ALIGNAS] tailp = true ->
  enum_item n (flat_map attr_toks ats ++ tailp) = enum_item n tailp.
Proof.
  intros Hats Hfirst Hna. destruct ats as [|[soup|soup] q]; [reflexivity| |contradiction].
  pose proof (aseq_rt (ABr soup :: q) tailp Hats Hna _ (le_n _)) as H.
  revert H. cbn [flat_map attr_toks app length aseq]. unfold enum_item at 1. isc. intros ->.
  destruct tailp as [|s r1]; [reflexivity|]. unfold enum_item. now rewrite (hd_out_is _ _ _ DLB Hna).
Qed.

Lemma enum_item_rt w (rb : bool) rest : wenum_ok w ->
  enum_item (fst (fst w)) (tl (wenum_toks w) ++ ktok (if rb then RBRACE else COMMA) :: rest) = DOk (strip_e w, rb, rest).
Proof.
  destruct w as [[n ats] v]. unfold wenum_ok, strip_e, wenum_toks. cbn [fst snd tl].
  intros (Hats & Hfirst & Hv). rewrite <- app_assoc.
  rewrite enum_item_attrs; [|assumption|assumption|destruct v, rb; reflexivity].
  destruct v as [v0|]; cbn [app enum_item].
  - isc. rewrite (value_is_whole tk kty enum_terms v0 _ Hv) by (destruct rb; [apply stops_rbrace|apply stops_comma]).
    now destruct rb.
  - now destruct rb.
Qed.

Lemma enum_list_one n acc w (rb : bool) Y : wenum_ok w ->
  enum_list (S n) acc (wenum_toks w ++ ktok (if rb then RBRACE else COMMA) :: Y) =
    if rb then DOk (rev (strip_e w :: acc), Y) else enum_list n (strip_e w :: acc) Y.
Proof.
  intros Hw. change (wenum_toks w) with (mkTk T_NAME (fst (fst w)) :: tl (wenum_toks w)).
  cbn [app enum_list]. isc. cbn [kval]. rewrite (enum_item_rt w rb Y Hw). now destruct rb.
Qed.

(* the one place where the last enumerator is special: without a trailing ',' the '}' stands directly behind it *)
Lemma enum_body_cons w q tc :
  enum_body_toks (w :: q) tc =
  wenum_toks w ++ (if match q with [] => negb tc | _ => false end then [ktok RBRACE] else ktok COMMA :: enum_body_toks q tc).
Proof. destruct q, tc; reflexivity. Qed.

Lemma enum_list_rt : forall items acc rest tc n,
  Forall wenum_ok items -> (length items < n)%nat ->
  enum_list n acc (enum_body_toks items tc ++ rest) = DOk (rev acc ++ map strip_e items, rest).
Proof.
  induction items as [|w q IH]; intros acc rest tc n Hok Hn; (destruct n as [|n]; [inversion Hn|]).
  - cbn [enum_body_toks app enum_list]. isc. cbn [map]. now rewrite app_nil_r.
  - inversion Hok as [|? ? Hw Hq]; subst. rewrite enum_body_cons, <- app_assoc.
    destruct (match q with [] => negb tc | _ => false end) eqn:E; cbn [app].
    + destruct q; [|discriminate]. now rewrite (enum_list_one n acc w true _ Hw).
    + rewrite (enum_list_one n acc w false _ Hw), (IH _ rest tc n Hq (le_S_n _ _ Hn)).
      cbn [rev map]. now rewrite <- app_assoc.
Qed.

Lemma enum_body_toks_length : forall items tc, (length items < length (enum_body_toks items tc))%nat.
Proof.
  induction items as [|w q IH]; intros tc; [apply le_n|]. rewrite enum_body_cons. unfold wenum_toks.
  cbn [app length]. rewrite app_length. specialize (IH tc).
  destruct (match q with [] => negb tc | _ => false end) eqn:E.
  - destruct q; [|discriminate]. cbn [length]. lia.
  - cbn [length] in *. lia.
Qed.

(* with the fuel the callers give: one more than the tokens left *)
Corollary enum_list_whole items tc rest :
  Forall wenum_ok items ->
  enum_list (S (length (enum_body_toks items tc ++ rest))) [] (enum_body_toks items tc ++ rest) = DOk (map strip_e items, rest).
Proof.
  intros H1. apply (enum_list_rt items [] rest tc _ H1).
  rewrite app_length. pose proof (enum_body_toks_length items tc). lia.
Qed.

Example ex_enum :
  let v := [mkTk T_NAME 7] in
  enum_list 4 [] (enum_body_toks [ (1, [], Some v); (2, [ABr [mkTk T_NAME 9]; AAl [mkTk T_NAME 8]], None); (3, [ABr []], Some v) ] true)
  = DOk ([(1, Some v); (2, None); (3, Some v)], []).
Proof. vm_compute. reflexivity. Qed.
