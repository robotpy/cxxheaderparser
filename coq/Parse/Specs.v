(* Hand-written mirror of the specifier loop of CxxParser._parse_type and of
   ParsedTypeModifiers.validate (parserstate.py), for base types named by one
   identifier, `void`, a fundamental type (a compound keyword takes the compound
   keywords that follow) or the plain elaborated form `key NAME`: the loop
   collects const / volatile (type qualifiers), the specifiers that may stand
   on variables and functions (constexpr extern
   inline static), on methods only (explicit virtual) and on variables only
   (mutable) in any order, before and after the type name; it stops at a second
   name, at a pointer / reference / parenthesis, or at any other token.
   `extern "C"` swallows the string.  Attributes, qualified and templated
   names, the other starts of a type name (typename, decltype, a leading '::',
   operator ...) are outside this model (code 4).
   Tied to the code by calling the real _parse_type on the same token lists
   (harness/props/c01.py). *)
From Coq Require Import NArith List Bool Permutation.
Import ListNotations.
From CXV Require Import Gen.TokTy Gen.ParserTables Parse.Balanced Parse.Declarator Parse.DeclSpec Parse.Toolkit.
Open Scope N_scope.

Record mods := mkMods {
  m_const : bool; m_volatile : bool;
  m_constexpr : bool; m_extern : bool; m_inline : bool; m_static : bool;     (* both *)
  m_explicit : bool; m_virtual : bool;                                        (* methods only *)
  m_mutable : bool                                                            (* variables only *)
}.
Definition mods0 := mkMods false false false false false false false false false.

Definition set_mod (k : N) (m : mods) : option mods :=
  let '(mkMods c v ce ex il st xp vi mu) := m in
  if k =? T_const then Some (mkMods true v ce ex il st xp vi mu)
  else if k =? T_volatile then Some (mkMods c true ce ex il st xp vi mu)
  else if k =? T_constexpr then Some (mkMods c v true ex il st xp vi mu)
  else if k =? T_extern then Some (mkMods c v ce true il st xp vi mu)
  else if (k =? T_inline) || (k =? T___inline) || (k =? T___forceinline) then Some (mkMods c v ce ex true st xp vi mu)
  else if k =? T_static then Some (mkMods c v ce ex il true xp vi mu)
  else if k =? T_explicit then Some (mkMods c v ce ex il st true vi mu)
  else if k =? T_virtual then Some (mkMods c v ce ex il st xp true mu)
  else if k =? T_mutable then Some (mkMods c v ce ex il st xp vi true)
  else None.

Definition is_name_start (t : tk) : bool := is T_NAME t || is T_void t.
Definition is_ptr_ref_paren (t : tk) : bool := is STAR t || is AMP t || is T_DBL_AMP t || is LP t.

(* the loop; [name] = the pqname found so far (0 = void) *)
Fixpoint spec_loop (m : mods) (name : option N) (toks : list tk) {struct toks}
  : dres (mods * N * list tk) :=
  let finish := match name with Some n => DOk (m, n, toks) | None => DErr 1 end in
  match toks with
  | t :: r =>
      if is_name_start t then
        match name with
        | Some _ => finish                                  (* found second set of names *)
        | None =>
            (* _parse_pqname would go on with '::' or '<': qualified and templated names are outside this model *)
            match r with
            | t2 :: _ => if is T_DBL_COLON t2 || is T_LIT_60 t2 then DErr 4
                         else spec_loop m (Some (if is T_void t then 0 else kval t)) r
            | [] => spec_loop m (Some (if is T_void t then 0 else kval t)) r
            end
        end
      else if is_ptr_ref_paren t then finish                (* error when no name was seen *)
      else
        match set_mod (kty t) m with
        | Some m' =>
            if is T_extern t then
              match r with
              | s :: r' => if is T_STRING_LITERAL s then spec_loop m' name r' else spec_loop m' name r
              | [] => spec_loop m' name r
              end
            else spec_loop m' name r
        | None =>
            (* no specifier.  Without a name so far: a fundamental type, an elaborated `key NAME`, or another start of a
               type name (typename, decltype, '::' ...), which is outside the model, not an error *)
            if memN (kty t) attribute_start_tokens then DErr 4       (* _consume_attribute inside the loop: not modelled *)
            else
            match name with
            | Some _ => finish
            | None =>
                if memN (kty t) fundamentals then
                  (* _parse_pqname_fundamental: a compound keyword takes the compound keywords that follow *)
                  if memN (kty t) compound_fundamentals then
                    (fix grp (l : list tk) (ws : list N) {struct l} : dres (mods * N * list tk) :=
                       match l with
                       | t2 :: r2 => if memN (kty t2) compound_fundamentals then grp r2 (ws ++ [kty t2])
                                     else spec_loop m (Some (fund_code ws)) l
                       | [] => spec_loop m (Some (fund_code ws)) l
                       end) r [kty t]
                  else spec_loop m (Some (fund_code [kty t])) r
                else if memN (kty t) name_compound_start then
                  (* an elaborated type specifier `struct X` / `enum E` (the class key is kept on the name by the parser; the
                     model keeps the name): only the plain form `key NAME` that is not followed by '::' or '<' *)
                  match r with
                  | x :: r1 =>
                      if is T_NAME x && negb (is T_enum t && (match r1 with y :: _ => is T_class y || is T_struct y | [] => false end))
                      then match r1 with
                           | y :: _ => if is T_DBL_COLON y || is T_LIT_60 y then DErr 4 else spec_loop m (Some (kval x)) r1
                           | [] => spec_loop m (Some (kval x)) r1
                           end
                      else DErr 4
                  | [] => DErr 4
                  end
                else if memN (kty t) pqname_start_tokens then DErr 4 else finish
            end
        end
  | [] => DErr 2                                            (* get_token() at end of input *)
  end.

Definition parse_specs (toks : list tk) : dres (mods * N * list tk) := spec_loop mods0 None toks.

(* ParsedTypeModifiers.validate(var_ok, meth_ok): true = accepted *)
Definition validate (var_ok meth_ok : bool) (m : mods) : bool :=
  let vars := m_mutable m in
  let meths := m_explicit m || m_virtual m in
  let both := m_constexpr m || m_extern m || m_inline m || m_static m in
  negb (negb var_ok && vars) && negb (negb meth_ok && meths) && negb (negb meth_ok && negb var_ok && both).

Definition spec_kws : list N :=
  [T_const; T_volatile; T_constexpr; T_extern; T_inline; T___inline; T___forceinline; T_static; T_explicit; T_virtual; T_mutable].
Definition spec_kw (k : N) : bool := existsb (N.eqb k) spec_kws.

Definition apply_kws (ks : list N) (m : mods) : mods :=
  fold_left (fun m k => match set_mod k m with Some m' => m' | None => m end) ks m.

Definition kw_toks (ks : list N) : list tk := map ktok ks.

Lemma spec_kw_in k : spec_kw k = true -> In k spec_kws.
Proof. exact (memN_In k spec_kws). Qed.

Lemma spec_kw_all (P : N -> bool) : forallb P spec_kws = true -> forall k, spec_kw k = true -> P k = true.
Proof.
  intros H k Hk. rewrite forallb_forall in H. apply H. now apply spec_kw_in.
Qed.

Definition has (c : N) (ks : list N) : bool := existsb (N.eqb c) ks.

Definition mods_or (m : mods) (ks : list N) : mods :=
  mkMods (m_const m || has T_const ks) (m_volatile m || has T_volatile ks) (m_constexpr m || has T_constexpr ks)
         (m_extern m || has T_extern ks) (m_inline m || (has T_inline ks || has T___inline ks || has T___forceinline ks))
         (m_static m || has T_static ks) (m_explicit m || has T_explicit ks) (m_virtual m || has T_virtual ks)
         (m_mutable m || has T_mutable ks).

Lemma set_mod_kw k m : spec_kw k = true -> set_mod k m = Some (mods_or m [k]).
Proof.
  intros H. apply spec_kw_in in H. unfold spec_kws in H. cbn [In] in H.
  destruct m as [c v ce ex il st xp vi mu]. unfold mods_or, has.
  repeat (destruct H as [<-|H]; [cbn; now rewrite ?orb_false_r, ?orb_true_r|]).
  contradiction.
Qed.

Lemma spec_kw_not_name k : spec_kw k = true ->
  is_name_start (ktok k) = false /\ is_ptr_ref_paren (ktok k) = false /\ is T_STRING_LITERAL (ktok k) = false.
Proof.
  intros H.
  pose proof (spec_kw_all (fun k => negb (is_name_start (ktok k) || is_ptr_ref_paren (ktok k) || is T_STRING_LITERAL (ktok k)))
                eq_refl k H) as E.
  apply negb_true_iff in E. apply orb_false_elim in E as [E E3]. apply orb_false_elim in E as [E1 E2]. now repeat split.
Qed.

Lemma spec_kw_not_scope k : spec_kw k = true -> is T_DBL_COLON (ktok k) || is T_LIT_60 (ktok k) = false.
Proof.
  intros H. apply negb_true_iff.
  exact (spec_kw_all (fun k => negb (is T_DBL_COLON (ktok k) || is T_LIT_60 (ktok k))) eq_refl k H).
Qed.

Lemma spec_kw_not_operator k : spec_kw k = true -> is T_operator (ktok k) = false.
Proof.
  intros H. apply negb_true_iff. exact (spec_kw_all (fun k => negb (is T_operator (ktok k))) eq_refl k H).
Qed.

Definition no_string (X : list tk) : bool := match X with s :: _ => negb (is T_STRING_LITERAL s) | [] => true end.

Lemma no_string_kws ks X : forallb spec_kw ks = true -> no_string X = true -> no_string (kw_toks ks ++ X) = true.
Proof.
  destruct ks as [|k q]; [now intros _|]. cbn [forallb kw_toks map app no_string]. intros Hk _.
  apply andb_prop in Hk as [Hk _]. destruct (spec_kw_not_name k Hk) as (_ & _ & N3). now rewrite N3.
Qed.

(* A loop over the tokens that takes a specifier keyword into the record the way spec_loop does (the string behind
   `extern` included) reads a written run of keywords. *)
Section KwLoop.
  Context {R : Type} (loop : mods -> list tk -> R).
  Hypothesis step : forall k m X, spec_kw k = true -> no_string X = true ->
    loop m (ktok k :: X) = loop (mods_or m [k]) X.

  Lemma kw_loop : forall ks m X, forallb spec_kw ks = true -> no_string X = true ->
    loop m (kw_toks ks ++ X) = loop (apply_kws ks m) X.
  Proof.
    induction ks as [|k q IH]; intros m X Hk HX; [reflexivity|].
    cbn [forallb] in Hk. apply andb_prop in Hk as [Hk1 Hk2].
    cbn [kw_toks map app]. fold (kw_toks q). rewrite (step k m _ Hk1 (no_string_kws q X Hk2 HX)).
    rewrite (IH _ X Hk2 HX). unfold apply_kws. cbn [fold_left]. now rewrite (set_mod_kw k m Hk1).
  Qed.
End KwLoop.

Lemma spec_loop_kw name k m X : spec_kw k = true -> no_string X = true ->
  spec_loop m name (ktok k :: X) = spec_loop (mods_or m [k]) name X.
Proof.
  intros Hk HX. destruct (spec_kw_not_name k Hk) as (N1 & N2 & _).
  cbn [spec_loop]. rewrite N1, N2. cbn [kty ktok]. rewrite (set_mod_kw k m Hk).
  destruct (is T_extern (ktok k)); [|reflexivity].
  now apply head_gate.
Qed.

Lemma spec_loop_kws : forall ks m name X,
  forallb spec_kw ks = true -> no_string X = true ->
  spec_loop m name (kw_toks ks ++ X) = spec_loop (apply_kws ks m) name X.
Proof.
  intros ks m name. apply (kw_loop (fun m => spec_loop m name)). intros k m' Y. apply spec_loop_kw.
Qed.

Lemma set_mod_none k m : spec_kw k = false -> set_mod k m = None.
Proof.
  intros H.
  (* spec_kw k is memN k spec_kws by conversion *)
  assert (E : forall c, memN c spec_kws = true -> (k =? c) = false) by (intros c; exact (memN_is c spec_kws (ktok k) H)).
  destruct m as [c v ce ex il st xp vi mu]. unfold set_mod. now rewrite !E by reflexivity.
Qed.

Definition nm_tok (b : N) : tk := if b =? 0 then ktok T_void else mkTk T_NAME b.

Definition spec_stop (rest : list tk) : bool :=
  match rest with
  | t :: _ => (is_name_start t || is_ptr_ref_paren t || negb (spec_kw (kty t))) && negb (is T_STRING_LITERAL t)
              && negb (is T_DBL_COLON t || is T_LIT_60 t) && negb (memN (kty t) attribute_start_tokens)
  | [] => false
  end.

Lemma P_head_stop n : forall ls rest, spec_stop (P ls [mkTk T_NAME n] ++ rest) = true.
Proof.
  induction ls as [|l r IH]; intros rest; [reflexivity|].
  destruct l as [c v| | |s|ps va]; try reflexivity; cbn [P].
  - destruct (starts_pfx r); [reflexivity|]. cbn [paren]. rewrite <- app_assoc. apply IH.
  - destruct (starts_pfx r); [reflexivity|]. cbn [paren]. rewrite <- app_assoc. apply IH.
Qed.

Lemma spec_loop_name m n X :
  headb (fun t => negb (is T_DBL_COLON t || is T_LIT_60 t)) X = true ->
  spec_loop m None (nm_tok n :: X) = spec_loop m (Some n) X.
Proof.
  intros H.
  assert (E : is_name_start (nm_tok n) = true /\ (if is T_void (nm_tok n) then 0 else kval (nm_tok n)) = n).
  { unfold nm_tok. destruct (N.eqb_spec n 0) as [->|Hn]; split; reflexivity. }
  destruct E as [E1 E2]. cbn [spec_loop]. rewrite E1, E2. now apply head_gate.
Qed.

Lemma spec_loop_stop m n rest : spec_stop rest = true -> spec_loop m (Some n) rest = DOk (m, n, rest).
Proof.
  destruct rest as [|t r]; [discriminate|]. cbn [spec_stop]. intros H.
  apply andb_prop in H as [H Hat]. apply andb_prop in H as [H _]. apply andb_prop in H as [Hs _].
  apply negb_true_iff in Hat.
  cbn [spec_loop]. destruct (is_name_start t); [reflexivity|]. destruct (is_ptr_ref_paren t); [reflexivity|].
  cbn [orb] in Hs. apply negb_true_iff in Hs. now rewrite (set_mod_none _ _ Hs), Hat.
Qed.

Lemma spec_stop_next rest : spec_stop rest = true ->
  no_string rest = true /\ headb (fun t => negb (is T_DBL_COLON t || is T_LIT_60 t)) rest = true.
Proof.
  destruct rest as [|t r]; [discriminate|]. cbn [spec_stop no_string headb]. intros H.
  apply andb_prop in H as [H _]. apply andb_prop in H as [H Hsc]. apply andb_prop in H as [_ Hstr]. now split.
Qed.

Theorem specs_decode_lemma pre post n rest :
  forallb spec_kw pre = true -> forallb spec_kw post = true -> spec_stop rest = true ->
  parse_specs (kw_toks pre ++ nm_tok n :: kw_toks post ++ rest)
  = DOk (apply_kws post (apply_kws pre mods0), n, rest).
Proof.
  intros Hpre Hpost Hstop. destruct (spec_stop_next rest Hstop) as [Hstr Hsc]. unfold parse_specs.
  rewrite spec_loop_kws by (exact Hpre || (unfold nm_tok; now destruct (n =? 0))).
  rewrite spec_loop_name.
  - rewrite spec_loop_kws by assumption. now apply spec_loop_stop.
  - destruct post as [|k q]; [exact Hsc|]. cbn [forallb] in Hpost. apply andb_prop in Hpost as [Hk _].
    cbn [kw_toks map app headb]. now rewrite (spec_kw_not_scope k Hk).
Qed.

Lemma spec_kws_app pre post : forallb spec_kw pre = true -> forallb spec_kw post = true -> forallb spec_kw (pre ++ post) = true.
Proof. intros H1 H2. now rewrite forallb_app, H1, H2. Qed.

Lemma apply_kws_app a b m : apply_kws b (apply_kws a m) = apply_kws (a ++ b) m.
Proof. unfold apply_kws. now rewrite fold_left_app. Qed.

Corollary specs_decode_app pre post n rest :
  forallb spec_kw pre = true -> forallb spec_kw post = true -> spec_stop rest = true ->
  parse_specs (kw_toks pre ++ nm_tok n :: kw_toks post ++ rest) = DOk (apply_kws (pre ++ post) mods0, n, rest).
Proof.
  intros Hpre Hpost Hstop. rewrite <- apply_kws_app. now apply specs_decode_lemma.
Qed.

Lemma mods_or_cons m k q : mods_or (mods_or m [k]) q = mods_or m (k :: q).
Proof.
  destruct m as [c v ce ex il st xp vi mu]. unfold mods_or, has.
  cbn [existsb m_const m_volatile m_constexpr m_extern m_inline m_static m_explicit m_virtual m_mutable].
  rewrite !orb_false_r, <- !orb_assoc. f_equal.
  (* inline: three spellings *)
  destruct il, (T_inline =? k), (T___inline =? k), (T___forceinline =? k),
    (existsb (N.eqb T_inline) q), (existsb (N.eqb T___inline) q), (existsb (N.eqb T___forceinline) q); reflexivity.
Qed.

Lemma apply_kws_eq : forall ks m, forallb spec_kw ks = true -> apply_kws ks m = mods_or m ks.
Proof.
  induction ks as [|k q IH]; intros m Hk.
  - destruct m. unfold mods_or, has. cbn. now rewrite !orb_false_r.
  - cbn [forallb] in Hk. apply andb_prop in Hk as [Hk1 Hk2].
    unfold apply_kws. cbn [fold_left]. rewrite (set_mod_kw k m Hk1). fold (apply_kws q (mods_or m [k])).
    rewrite (IH _ Hk2). apply mods_or_cons.
Qed.

Lemma extern_flag ks : forallb spec_kw ks = true -> m_extern (apply_kws ks mods0) = has T_extern ks.
Proof. intros Hk. now rewrite apply_kws_eq by exact Hk. Qed.

Lemma has_perm c ks ks' : Permutation ks ks' -> has c ks = has c ks'.
Proof.
  unfold has. induction 1 as [|x l l' _ IH|x y l|l1 l2 l3 _ IH1 _ IH2]; cbn [existsb].
  - reflexivity.
  - now rewrite IH.
  - destruct (c =? x), (c =? y); reflexivity.
  - now rewrite IH1.
Qed.

Theorem specifier_order_irrelevant_lemma ks ks' :
  forallb spec_kw ks = true -> Permutation ks ks' -> apply_kws ks mods0 = apply_kws ks' mods0.
Proof.
  intros Hk Hp.
  assert (Hk' : forallb spec_kw ks' = true).
  { rewrite forallb_forall in *. intros x Hx. apply Hk. eapply Permutation_in; [apply Permutation_sym; exact Hp|exact Hx]. }
  rewrite !apply_kws_eq by assumption. unfold mods_or. now rewrite !(has_perm _ _ _ Hp).
Qed.

Theorem validate_spec var_ok meth_ok m :
  validate var_ok meth_ok m =
    (implb (m_mutable m) var_ok) && (implb (m_explicit m || m_virtual m) meth_ok)
    && (implb (m_constexpr m || m_extern m || m_inline m || m_static m) (var_ok || meth_ok)).
Proof.
  unfold validate. destruct var_ok, meth_ok; cbn [negb andb orb]; now rewrite ?implb_true_r, ?implb_false_r, ?andb_true_r.
Qed.

(* in a class body every combination passes *)
Lemma validate_tt m : validate true true m = true.
Proof. reflexivity. Qed.

(* validate(var_ok = True, meth_ok = False), a function at namespace scope: `mutable` is not looked at *)
Lemma validate_ns_fn ks :
  forallb spec_kw ks = true -> has T_explicit ks = false -> has T_virtual ks = false ->
  validate true false (apply_kws ks mods0) = true.
Proof.
  intros Hk He Hv. rewrite validate_spec, apply_kws_eq by exact Hk.
  unfold mods_or. cbn [m_explicit m_virtual mods0 orb]. rewrite He, Hv.
  cbn [andb implb]. now rewrite !implb_true_r.
Qed.

Lemma validate_ns_ok ks :
  forallb spec_kw ks = true -> has T_explicit ks = false -> has T_virtual ks = false -> has T_mutable ks = false ->
  validate true false (apply_kws ks mods0) && negb (m_mutable (apply_kws ks mods0)) = true.
Proof.
  intros Hk He Hv Hm. rewrite (validate_ns_fn ks Hk He Hv), apply_kws_eq by exact Hk.
  unfold mods_or. cbn [m_mutable mods0 orb]. now rewrite Hm.
Qed.

(* a keyword that fails a test every element passes does not occur *)
Lemma has_none (P : N -> bool) c ks : forallb P ks = true -> P c = false -> has c ks = false.
Proof.
  intros H Hc. induction ks as [|x r IH]; [reflexivity|]. cbn [forallb] in H. apply andb_prop in H as [Hx Hr].
  unfold has. cbn [existsb]. destruct (N.eqb_spec c x) as [->|_]; [congruence|]. exact (IH Hr).
Qed.

Lemma cv_only_kws ks :
  forallb (fun k => (k =? T_const) || (k =? T_volatile)) ks = true ->
  forallb spec_kw ks = true /\ validate false false (apply_kws ks mods0) = true.
Proof.
  intros Hcv.
  assert (Hk : forallb spec_kw ks = true).
  { rewrite forallb_forall in *. intros x Hx. specialize (Hcv x Hx).
    apply orb_prop in Hcv as [H|H]; apply N.eqb_eq in H; subst x; reflexivity. }
  split; [exact Hk|].
  rewrite validate_spec, apply_kws_eq by exact Hk. unfold mods_or.
  cbn [m_mutable m_explicit m_virtual m_constexpr m_extern m_inline m_static mods0 orb].
  (* validate looks at no flag that `const` or `volatile` sets *)
  rewrite !(has_none _ _ ks Hcv) by reflexivity. reflexivity.
Qed.

(* the keyword sets the model hard-codes are the regenerated sets of the code
   (Gen/ParserTables.v: _type_kwd_both, _type_kwd_meth, _parse_type_ptr_ref_paren) *)
Definition same_set (a b : list N) : bool :=
  forallb (fun x => memN x b) a && forallb (fun x => memN x a) b.
Definition spec_sets_ok : bool :=
  same_set type_kwd_both [T_const; T_constexpr; T_extern; T_inline; T_static]
  && same_set type_kwd_meth [T_explicit; T_virtual]
  && same_set parse_type_ptr_ref_paren [STAR; AMP; T_DBL_AMP; LP].
Lemma spec_sets_ok_true : spec_sets_ok = true.
Proof. vm_compute. reflexivity. Qed.
