(* Hand-written mirror of how CxxParser._parse_declarations / _parse_decl /
   _parse_function / _parse_field put one member declaration statement together
   INSIDE A CLASS BODY (not a typedef, not a friend, no template header):
   specifiers and base type (_parse_type), validate(var_ok, meth_ok), then for
   every declarator of the statement
     - the pointer / reference part (_parse_cv_ptr),
     - a '(' directly behind an undecorated type name that is the name of the
       class or its '~' form: a CONSTRUCTOR / DESTRUCTOR (no return type),
     - otherwise a leading parenthesis that is not a declarator group is
       re-injected once, then the name,
     - '(' behind the name: a METHOD (parameters, _parse_method_end); the
       statement is over when it has a body,
     - anything else: a FIELD (_parse_field: array suffix, bit-field width,
       initialiser; `extern` makes the Field constructor fail; a field may be
       unnamed),
   and ',' / ';' between and behind declarators.
   [cls] is the value id of the class name (0: the class has no name) and
   [dcls] the value id of the text '~' + class name (the lexer makes `~C` one
   NAME token).
   Outside the model (code 4): qualified / templated / operator names, msvc
   calling conventions, abbreviated templates, trailing return types,
   requires-clauses, and whatever the sub-models leave out.
   Tied to the code by the differential run of harness/props/c03.py (extracted
   member_stmt vs parse_string of a class with a recording visitor).
   The end of the file holds what the one-declarator statement models share:
   typed_stmt / typed_stmt_rt (specifiers, type name, validate, pointer part:
   OperatorMember, OperatorFn, MethodImpl, FriendStmt), the two lemmas about
   the pointer part it rests on, cvptr_pfx / pfx_type_head (ConvOp as well),
   and, further up, method_close (the method tail and the ';' behind it:
   OperatorMember, ConvOp, FriendStmt). *)
From Coq Require Import NArith List Bool.
Import ListNotations.
From CXV Require Import Gen.TokTy Gen.ParserTables Parse.Balanced Parse.BalancedThms Parse.Declarator Parse.DeclSpec
  Parse.DeclThms Parse.EnumList Parse.Specs Parse.Init Parse.Members Parse.MethodTail Parse.DeclStmt.
Open Scope N_scope.

Inductive mentry :=
| MField (nm : option N) (t : ty) (bits : option N) (iv : option (list tk))
| MMethod (nm : N) (rt : option ty) (ps : list (ty * option N)) (va : bool) (ctor dtor : bool) (q : mtail).

(* _parse_field in a class, behind the (optional) name *)
Definition field_part_c (fuel : nat) (ext : bool) (d : ty) (nm : option N) (r2 : list tk) : dres (mentry * bool * list tk) :=
  let arr := match r2 with
             | a :: r3 => if is LB a then arrtype fuel d a r3 else DOk (d, r2)
             | [] => DOk (d, r2)
             end in
  match arr with
  | DErr e => DErr e
  | DOk (d1, r4) =>
      match bits_part true false r4 with
      | DErr e => DErr e
      | DOk (bits, r5) =>
          match init_part false r5 with
          | DErr e => DErr e
          | DOk (iv, r6) => if ext then DErr 3 else DOk (MField nm d1 bits iv, false, r6)
          end
      end
  end.

(* _parse_function in a class, behind the '(' *)
Definition method_part (fuel : nat) (rt : option ty) (nm : N) (ctor dtor : bool) (r3 : list tk) : dres (mentry * bool * list tk) :=
  match params fuel r3 with
  | DErr e => DErr e
  | DOk (ps, va, r4) =>
      match parse_method_end r4 with
      | DErr e => DErr e
      | DOk (q, r5) => DOk (MMethod nm rt ps va ctor dtor q, q_body q, r5)
      end
  end.

(* 0 neither, 1 constructor, 2 destructor: the comparison of the type name with the class name *)
Definition cd_code (cls dcls bn : N) (d : ty) : N :=
  match d with
  | TBase _ _ _ => if cls =? 0 then 0 else if bn =? cls then 1 else if bn =? dcls then 2 else 0
  | _ => 0
  end.

Definition one_member (fuel : nat) (ext : bool) (cls dcls bn : N) (b : ty) (toks : list tk) : dres (mentry * bool * list tk) :=
  match cvptr fuel b toks with
  | DErr e => DErr e
  | DOk (d, r1) =>
      if is_fn d then DErr 3
      else
        let cd := cd_code cls dcls bn d in
        match r1 with
        | t :: r2 =>
            if is LP t && negb (cd =? 0) then method_part fuel None bn (cd =? 1) (cd =? 2) r2
            else
              match strip_group r1 with
              | DErr e => DErr e
              | DOk r1' =>
                  match r1' with
                  | t' :: r2' =>
                      if is T_NAME t' then
                        match r2' with
                        | a :: r3 =>
                            if is LP a then method_part fuel (Some d) (kval t') false false r3
                            else if is T_DBL_COLON a || is LT a then DErr 4
                            else field_part_c fuel ext d (Some (kval t')) r2'
                        | [] => field_part_c fuel ext d (Some (kval t')) r2'
                        end
                      else if is LP t' then DErr 1
                      else if memN (kty t') pqname_start_tokens then DErr 4
                      else field_part_c fuel ext d None r1'
                  | [] => field_part_c fuel ext d None r1'
                  end
              end
        | [] => field_part_c fuel ext d None r1
        end
  end.

Fixpoint member_items (n : nat) (fuel : nat) (ext : bool) (cls dcls bn : N) (b : ty) (toks : list tk) : dres (list mentry * list tk) :=
  match n with
  | O => DErr 9
  | S n' =>
      match one_member fuel ext cls dcls bn b toks with
      | DErr e => DErr e
      | DOk (e, ended, r) =>
          if ended then DOk ([e], r)
          else
            match r with
            | s :: r' =>
                if is COMMA s then
                  match member_items n' fuel ext cls dcls bn b r' with
                  | DOk (l, r'') => DOk (e :: l, r'')
                  | DErr e' => DErr e'
                  end
                else if is SEMI s then DOk ([e], r')
                else DErr 1
            | [] => DErr 2
            end
      end
  end.

Definition auto_next (r : list tk) : bool := match r with a :: _ => is T_auto a | [] => false end.

Definition member_stmt (n fuel : nat) (cls dcls : N) (toks : list tk) : dres (mods * list mentry * list tk) :=
  match parse_specs toks with
  | DErr e => DErr e
  | DOk (m, b, r) =>
      if auto_next r then DErr 4
      else if validate true true m then
        match member_items n fuel (m_extern m) cls dcls b (TBase b (m_const m) (m_volatile m)) r with
        | DOk (l, r') => DOk (m, l, r')
        | DErr e => DErr e
        end
      else DErr 3
  end.

Inductive mditem :=
| MIField (ls : list layer) (n : N) (bits : option N) (i : init)
| MIMethod (ls : list layer) (ps : list (ty * option N)) (va : bool) (n : N) (quals : list mq).

Definition mditem_toks (it : mditem) : list tk :=
  match it with
  | MIField ls n bits i => P ls [mkTk T_NAME n] ++ bits_toks bits ++ init_toks i
  | MIMethod ls ps va n quals => P (ls ++ [LFn ps va]) [mkTk T_NAME n] ++ flat_map mq_toks quals
  end.

Definition quals_of (quals : list mq) : mtail := fold_left (fun q i => apply_mq i q) quals mt0.

Definition mditem_entry (b : ty) (it : mditem) : mentry :=
  match it with
  | MIField ls n bits i => MField (Some n) (wrap b ls) bits (init_value i)
  | MIMethod ls ps va n quals => MMethod n (Some (wrap b ls)) ps va false false (quals_of quals)
  end.

Definition mditem_ok (it : mditem) : Prop :=
  match it with
  | MIField ls n bits i => legalL KB ls = true /\ Forall layer_ok ls /\ kind_end KB ls <> KFn /\ init_ok i
  | MIMethod ls ps va n quals =>
      legalL KB (ls ++ [LFn ps va]) = true /\ Forall layer_ok (ls ++ [LFn ps va]) /\
      (kind_end KB ls = KB \/ kind_end KB ls = KRef) /\ Forall mq_ok quals
  end.

Definition is_method_item (it : mditem) : bool := match it with MIMethod _ _ _ _ _ => true | _ => false end.

(* the ending behind the last declarator: ';', or behind a method `= 0 ;`, `= delete ;`, `= default ;` or a body *)
Definition mlast_toks (e : mend) : list tk :=
  match e with
  | MeBody _ | MeCtor _ _ => mend_toks e
  | _ => mend_toks e ++ [ktok SEMI]
  end.

Definition mlast_ok (it : mditem) (e : mend) : Prop :=
  match e with
  | MeDecl => True
  | MeCtor _ _ => False                       (* initialiser lists belong to constructors *)
  | MeBody soup => is_method_item it = true /\ bal tk kty LBRACE RBRACE soup
  | _ => is_method_item it = true
  end.

Definition mlast_entry (b : ty) (it : mditem) (e : mend) : mentry :=
  match it with
  | MIMethod ls ps va n quals => MMethod n (Some (wrap b ls)) ps va false false (apply_end e (quals_of quals))
  | _ => mditem_entry b it
  end.

Fixpoint mitems_toks (items : list mditem) (last : mditem) (e : mend) : list tk :=
  match items with
  | [] => mditem_toks last ++ mlast_toks e
  | it :: q => mditem_toks it ++ ktok COMMA :: mitems_toks q last e
  end.

Lemma cd_code_wrap cls dcls bn b c v ls :
  ls <> [] -> cd_code cls dcls bn (wrap (TBase b c v) ls) = 0.
Proof.
  intros Hne. destruct ls as [|l r] using rev_ind; [contradiction|].
  unfold wrap. rewrite fold_left_app. cbn [fold_left]. destruct l; reflexivity.
Qed.

Lemma quals_no_body quals : q_body (quals_of quals) = false.
Proof.
  unfold quals_of. assert (G : forall l q, q_body q = false -> q_body (fold_left (fun q i => apply_mq i q) l q) = false).
  { induction l as [|i l IH]; intros q Hq'; [exact Hq'|]. cbn [fold_left]. apply IH.
    destruct q as [c1 v1 o1 f1' rf1 th1 ne1 pu1 de1 df1 bo1]. cbn [q_body] in Hq'. subst bo1.
    destruct i as [| | | |rv|e0|[e0|]]; reflexivity. }
  now apply G.
Qed.

Definition has_body (e : mend) : bool := match e with MeBody _ | MeCtor _ _ => true | _ => false end.

Lemma q_body_end e quals : q_body (apply_end e (quals_of quals)) = has_body e.
Proof.
  pose proof (quals_no_body quals) as H. destruct (quals_of quals) as [c v o f rf th ne pu de df bo].
  cbn [q_body] in H. subst bo. destruct e; reflexivity.
Qed.

Lemma apply_end_decl q : apply_end MeDecl q = q.
Proof. now destruct q. Qed.

(* the ending as the statement prints it: the ';' belongs to the statement, not to _parse_method_end *)
Definition after_end (e : mend) (rest : list tk) : list tk := if has_body e then rest else ktok SEMI :: rest.

Lemma mlast_split e rest : mlast_toks e ++ rest = mend_toks e ++ after_end e rest.
Proof. destruct e; cbn [mlast_toks after_end has_body]; rewrite <- ?app_assoc; reflexivity. Qed.

Lemma after_end_ok e rest :
  (match e with MeBody soup => bal tk kty LBRACE RBRACE soup | MeCtor _ _ => mend_ok e rest | _ => True end) ->
  mend_ok e (after_end e rest).
Proof. destruct e; cbn [mend_ok after_end has_body]; auto. Qed.

(* _parse_method_end and the ';' a one-declarator statement wants behind a method without body; [R] builds the result *)
Lemma method_close {A} (R : mtail -> A) quals e rest :
  Forall mq_ok quals ->
  (match e with MeBody soup => bal tk kty LBRACE RBRACE soup | MeCtor _ _ => False | _ => True end) ->
  match parse_method_end (flat_map mq_toks quals ++ mlast_toks e ++ rest) with
  | DErr e => DErr e
  | DOk (q, r5) =>
      if q_body q then DOk (R q, r5)
      else match r5 with s :: r6 => if is SEMI s then DOk (R q, r6) else DErr 1 | [] => DErr 2 end
  end = DOk (R (apply_end e (quals_of quals)), rest).
Proof.
  intros Hq He. rewrite mlast_split, (parse_method_end_roundtrip quals e (after_end e rest) Hq).
  2:{ apply after_end_ok. destruct e; auto; contradiction. }
  fold (quals_of quals). rewrite q_body_end. unfold after_end. destruct (has_body e); [reflexivity|]. isc. reflexivity.
Qed.

Lemma one_member_field cls dcls bn b c v ls n bits i s rest :
  legalL KB ls = true -> Forall layer_ok ls -> kind_end KB ls <> KFn -> init_ok i -> sep_ok s ->
  ev (fun f => one_member f false cls dcls bn (TBase b c v) (P ls [mkTk T_NAME n] ++ bits_toks bits ++ init_toks i ++ s :: rest))
     (DOk (MField (Some n) (wrap (TBase b c v) ls) bits (init_value i), false, s :: rest)).
Proof.
  intros Hleg Hok Hk Hi Hs.
  destruct (tail_head_sep bits i s rest Hs) as (S1 & S2 & _). set (X := bits_toks bits ++ init_toks i ++ s :: rest) in *.
  destruct (declarator_arr false b c v ls (Some n) X Hleg Hok Hk S1 eq_refl S2) as (d & R & Hcv & Hnf & HR).
  unfold one_member. eapply ev_bind; [exact Hcv|]. cbn beta iota zeta. rewrite Hnf.
  cbn [name_toks app]. isc. rewrite strip_group_id by reflexivity. isc. cbn [kval].
  apply name_then_object.
  { apply (arrs_left_head _ _ _ _ _ HR); [reflexivity|]. unfold X. destruct bits; [reflexivity|].
    destruct i, Hs as [->| ->]; reflexivity. }
  unfold field_part_c. eapply ev_bind; [exact (field_arr _ _ _ _ HR S2)|]. cbn beta iota. unfold X.
  rewrite bits_part_rt; [|intros _; now split|now apply init_no_colon_sep].
  rewrite (init_part_sep false i s rest Hi ltac:(discriminate) Hs). apply ev_const.
Qed.

Lemma method_part_rt rt nm (ctor dtor : bool) ps va quals e rest :
  layer_ok (LFn ps va) -> Forall mq_ok quals -> mend_ok e rest ->
  ev (fun f => method_part f rt nm ctor dtor (params_toks ps va ++ ktok RP :: flat_map mq_toks quals ++ mend_toks e ++ rest))
     (DOk (MMethod nm rt ps va ctor dtor (apply_end e (quals_of quals)), has_body e, rest)).
Proof.
  intros [_ Hprm] Hq He. unfold method_part. eapply ev_bind; [apply Hprm|]. cbn beta iota.
  rewrite (parse_method_end_roundtrip quals e rest Hq He). fold (quals_of quals). rewrite q_body_end. apply ev_const.
Qed.

Lemma one_member_method cls dcls bn b c v ls ps va n quals e rest :
  legalL KB (ls ++ [LFn ps va]) = true -> Forall layer_ok (ls ++ [LFn ps va]) ->
  (kind_end KB ls = KB \/ kind_end KB ls = KRef) -> Forall mq_ok quals -> mend_ok e rest -> (e = MeDecl -> nolb rest = true) ->
  ev (fun f => one_member f false cls dcls bn (TBase b c v)
                 (P (ls ++ [LFn ps va]) [mkTk T_NAME n] ++ flat_map mq_toks quals ++ mend_toks e ++ rest))
     (DOk (MMethod n (Some (wrap (TBase b c v) ls)) ps va false false (apply_end e (quals_of quals)), has_body e, rest)).
Proof.
  intros Hleg Hok Hk Hq He Hnb.
  set (X := flat_map mq_toks quals ++ mend_toks e ++ rest).
  assert (Hnl : nolb X = true).
  { unfold X. destruct quals as [|i0 q0].
    - cbn [flat_map app]. destruct e as [| | | |soup|inits soup]; cbn [mend_toks app]; try reflexivity.
      exact (Hnb eq_refl).
    - cbn [flat_map]. destruct i0 as [| | | |rv|e0|[e0|]]; cbn [mq_toks app]; try reflexivity. destruct rv; reflexivity. }
  destruct (fn_head_layers b c v ls ps va n X Hleg Hok Hk Hnl) as (Hcv & Hnf & _).
  assert (Hl : layer_ok (LFn ps va)) by (apply Forall_app in Hok as [_ H]; now inversion H).
  unfold one_member. eapply ev_bind; [exact Hcv|]. cbn beta iota zeta. rewrite Hnf.
  isc. rewrite strip_group_id by reflexivity. isc. cbn [kval]. now apply method_part_rt.
Qed.

Lemma one_member_item cls dcls bn b c v it s rest :
  mditem_ok it -> sep_ok s ->
  ev (fun f => one_member f false cls dcls bn (TBase b c v) (mditem_toks it ++ s :: rest))
     (DOk (mditem_entry (TBase b c v) it, false, s :: rest)).
Proof.
  intros Hok Hs. destruct it as [ls n bits i|ls ps va n quals]; cbn [mditem_toks mditem_entry mditem_ok] in *;
    destruct Hok as (H1 & H2 & H3 & H4); rewrite <- !app_assoc.
  - now apply one_member_field.
  - assert (Hm : mend_ok MeDecl (s :: rest) /\ nolb (s :: rest) = true) by (destruct Hs as [->| ->]; split; reflexivity).
    pose proof (one_member_method cls dcls bn b c v ls ps va n quals MeDecl (s :: rest) H1 H2 H3 H4 (proj1 Hm) (fun _ => proj2 Hm)) as H.
    now rewrite apply_end_decl in H.
Qed.

Lemma member_items_last n ext cls dcls bn b toks e (ended : bool) r rest :
  ev (fun f => one_member f ext cls dcls bn b toks) (DOk (e, ended, r)) -> r = (if ended then rest else ktok SEMI :: rest) ->
  ev (fun f => member_items (S n) f ext cls dcls bn b toks) (DOk ([e], rest)).
Proof.
  intros H ->. cbn [member_items]. eapply ev_bind; [exact H|]. cbn beta iota.
  destruct ended; [apply ev_const|]. isc. apply ev_const.
Qed.

Lemma mlast_entry_decl b it : mlast_entry b it MeDecl = mditem_entry b it.
Proof. destruct it as [|ls ps va n quals]; [reflexivity|]. cbn [mlast_entry mditem_entry]. now rewrite apply_end_decl. Qed.

Lemma mlast_rt cls dcls bn b c v it e rest :
  mditem_ok it -> mlast_ok it e ->
  ev (fun f => member_items 1 f false cls dcls bn (TBase b c v) (mditem_toks it ++ mlast_toks e ++ rest))
     (DOk ([mlast_entry (TBase b c v) it e], rest)).
Proof.
  intros Hok Hle. destruct it as [ls n bits i|ls ps va n quals].
  - destruct e; try contradiction; try discriminate Hle; [|now destruct Hle].
    apply (member_items_last _ _ _ _ _ _ _ _ false (ktok SEMI :: rest)); [|reflexivity].
    apply (one_member_item _ _ _ _ _ _ (MIField ls n bits i)); [exact Hok|now right].
  - destruct Hok as (H1 & H2 & H3 & H4). cbn [mditem_toks mlast_entry]. rewrite <- app_assoc, mlast_split.
    apply (member_items_last _ _ _ _ _ _ _ _ (has_body e) (after_end e rest)); [|reflexivity].
    apply one_member_method; try assumption.
    + apply after_end_ok. destruct e; try exact I; [apply Hle|contradiction].
    + intros ->. reflexivity.
Qed.

Lemma mitems_toks_commas items last e : mitems_toks items last e = commas mditem_toks items (mditem_toks last ++ mlast_toks e).
Proof. induction items as [|it q IH]; [reflexivity|]. cbn [mitems_toks commas]. now rewrite IH. Qed.

Lemma member_items_rt cls dcls bn b c v items last e rest :
  Forall mditem_ok items -> mditem_ok last -> mlast_ok last e ->
  ev (fun f => member_items (S (length items)) f false cls dcls bn (TBase b c v) (mitems_toks items last e ++ rest))
     (DOk (map (mditem_entry (TBase b c v)) items ++ [mlast_entry (TBase b c v) last e], rest)).
Proof.
  intros Hall Hlast Hle. rewrite mitems_toks_commas, commas_app, <- app_assoc.
  apply (commas_rt (fun n f => member_items n f false cls dcls bn (TBase b c v))) with (ok := mditem_ok);
    [|assumption|now apply mlast_rt].
  intros it n Y Hit. apply (ev_with (one_member_item cls dcls bn b c v it (ktok COMMA) Y Hit (or_introl eq_refl))), ev_always.
  intros f E. cbn [member_items]. rewrite E. cbn iota. isc. reflexivity.
Qed.

Lemma auto_next_head X : headb (fun t => negb (is T_auto t)) X = true -> auto_next X = false.
Proof. destruct X as [|a r]; [reflexivity|]. cbn [headb auto_next]. apply negb_true_iff. Qed.

Lemma mitems_start items last e rest : starts_decl (mitems_toks items last e ++ rest).
Proof.
  assert (G : forall it Y, starts_decl (mditem_toks it ++ Y)).
  { intros [ls n bits i|ls ps va n quals] Y; cbn [mditem_toks]; rewrite <- app_assoc; repeat eexists. }
  destruct items as [|it q]; cbn [mitems_toks]; rewrite <- app_assoc; apply G.
Qed.

(* `spec* T spec* m1, ..., mn <end>` in a class body *)
Theorem member_stmt_roundtrip cls dcls pre post b items last e rest :
  forallb spec_kw pre = true -> forallb spec_kw post = true -> has T_extern (pre ++ post) = false ->
  Forall mditem_ok items -> mditem_ok last -> mlast_ok last e ->
  let m := apply_kws (pre ++ post) mods0 in
  let bt := TBase b (m_const m) (m_volatile m) in
  ev (fun f => member_stmt (S (length items)) f cls dcls
                 (kw_toks pre ++ nm_tok b :: kw_toks post ++ mitems_toks items last e ++ rest))
     (DOk (m, map (mditem_entry bt) items ++ [mlast_entry bt last e], rest)).
Proof.
  intros Hpre Hpost Hex Hall Hlast Hle m bt.
  pose proof (spec_kws_app pre post Hpre Hpost) as Hk.
  unfold member_stmt.
  rewrite (specs_decode_app pre post b _ Hpre Hpost (starts_decl_stop _ (mitems_start items last e rest))). fold m.
  rewrite auto_next_head by (apply (starts_decl_head _ _ (mitems_start items last e rest)); reflexivity).
  rewrite validate_tt. unfold m at 1. rewrite (extern_flag _ Hk), Hex. fold bt.
  eapply ev_bind; [now apply member_items_rt|]. apply ev_const.
Qed.

(* constructors and destructors: `spec* C ( params ) quals end` and `spec* ~C ( params ) quals end` in class C *)
Definition special_toks (nm : N) (ps : list (ty * option N)) (va : bool) (quals : list mq) (e : mend) : list tk :=
  mkTk T_NAME nm :: ktok LP :: params_toks ps va ++ ktok RP :: flat_map mq_toks quals ++ mlast_toks e.

Lemma one_member_ctor ext cls dcls nm c v ps va quals e rest (ctor : bool) :
  cls <> 0 -> dcls <> cls -> nm = (if ctor then cls else dcls) ->
  layer_ok (LFn ps va) -> Forall mq_ok quals -> mend_ok e rest ->
  ev (fun f => one_member f ext cls dcls nm (TBase nm c v)
                 (ktok LP :: params_toks ps va ++ ktok RP :: flat_map mq_toks quals ++ mend_toks e ++ rest))
     (DOk (MMethod nm None ps va ctor (negb ctor) (apply_end e (quals_of quals)), has_body e, rest)).
Proof.
  intros Hcls Hd Hnm Hl Hq He.
  assert (Ecd : cd_code cls dcls nm (TBase nm c v) = (if ctor then 1 else 2)).
  { unfold cd_code. apply N.eqb_neq in Hcls. rewrite Hcls. subst nm. destruct ctor.
    - now rewrite N.eqb_refl.
    - apply N.eqb_neq in Hd. rewrite Hd. now rewrite N.eqb_refl. }
  unfold one_member. eapply ev_bind; [apply (ev_stops_g false); [apply params_stops|reflexivity]|].
  cbn beta iota zeta. cbn [is_fn]. rewrite Ecd. isc.
  destruct ctor; now apply method_part_rt.
Qed.

(* the ctor / dtor path never looks at `extern` (only the Field constructor rejects it) *)
Theorem ctor_dtor_roundtrip cls dcls pre nm ps va quals e rest (ctor : bool) :
  forallb spec_kw pre = true ->
  cls <> 0 -> dcls <> 0 -> dcls <> cls -> nm = (if ctor then cls else dcls) ->
  layer_ok (LFn ps va) -> Forall mq_ok quals ->
  (match e with MeBody soup => bal tk kty LBRACE RBRACE soup | MeCtor _ _ => mend_ok e rest | _ => True end) ->
  ev (fun f => member_stmt 1 f cls dcls (kw_toks pre ++ special_toks nm ps va quals e ++ rest))
     (DOk (apply_kws pre mods0, [MMethod nm None ps va ctor (negb ctor) (apply_end e (quals_of quals))], rest)).
Proof.
  intros Hpre Hcls Hdz Hd Hnm Hl Hq He.
  set (X := ktok LP :: params_toks ps va ++ ktok RP :: flat_map mq_toks quals ++ mend_toks e ++ after_end e rest).
  assert (Hnz : nm <> 0) by (subst nm; destruct ctor; assumption).
  assert (Etoks : kw_toks pre ++ special_toks nm ps va quals e ++ rest = kw_toks pre ++ nm_tok nm :: kw_toks [] ++ X).
  { unfold special_toks, X, nm_tok. apply N.eqb_neq in Hnz. rewrite Hnz, <- mlast_split. cbn [kw_toks map app].
    do 2 f_equal. rewrite <- !app_assoc. cbn [app]. do 2 f_equal. now rewrite <- !app_assoc. }
  unfold member_stmt. rewrite Etoks, (specs_decode_lemma pre [] nm X Hpre eq_refl eq_refl).
  change (auto_next X) with false. cbn [apply_kws fold_left]. cbn iota. rewrite validate_tt.
  (* the pair shape of the witness lets [ev_const] unify before the first premise has fixed it *)
  eapply (ev_bind _ _ (_, _)); [|apply ev_const].
  apply (member_items_last _ _ _ _ _ _ _ _ (has_body e) (after_end e rest)); [|reflexivity].
  apply one_member_ctor; try assumption. now apply after_end_ok.
Qed.

Theorem special_member_roundtrip cls dcls pre nm ps va quals e rest (ctor : bool) :
  forallb spec_kw pre = true -> has T_extern pre = false ->
  cls <> 0 -> dcls <> 0 -> dcls <> cls -> nm = (if ctor then cls else dcls) ->
  layer_ok (LFn ps va) -> Forall mq_ok quals ->
  (match e with MeBody soup => bal tk kty LBRACE RBRACE soup | MeCtor _ _ => mend_ok e rest | _ => True end) ->
  ev (fun f => member_stmt 1 f cls dcls (kw_toks pre ++ special_toks nm ps va quals e ++ rest))
     (DOk (apply_kws pre mods0, [MMethod nm None ps va ctor (negb ctor) (apply_end e (quals_of quals))], rest)).
Proof. intros Hpre _. now apply ctor_dtor_roundtrip. Qed.

Lemma cvptr_pfx b c v ls X :
  forallb is_pfx ls = true -> legalL KB ls = true -> stops X = true -> nolb X = true ->
  ev (fun f => cvptr f (TBase b c v) (P ls [] ++ X)) (DOk (wrap (TBase b c v) ls, X)) /\
  is_fn (wrap (TBase b c v) ls) = false.
Proof.
  intros Hpf Hleg Hst Hnl. pose proof (all_pfx_ends ls Hpf) as He. split; [|now apply wrap_ends_pfx].
  assert (Hok : Forall layer_ok ls).
  { apply Forall_forall. intros l Hl. rewrite forallb_forall in Hpf. specialize (Hpf l Hl).
    destruct l; try exact I; discriminate Hpf. }
  pose proof (loop_split false ls [] (TBase b c v) [] X He) as H. rewrite app_nil_r in H.
  apply H; try assumption; [constructor|reflexivity].
Qed.

Lemma pfx_type_head ls X :
  forallb is_pfx ls = true -> spec_stop X = true -> auto_next X = false ->
  spec_stop (P ls [] ++ X) = true /\ auto_next (P ls [] ++ X) = false.
Proof.
  intros Hpf HX HA. destruct ls as [|l r]; [split; assumption|]. cbn [forallb] in Hpf. apply andb_prop in Hpf as [Hl _].
  destruct l; try discriminate Hl; split; reflexivity.
Qed.

(* What _parse_declarations does before it looks at the name: specifiers and type name, validate, the pointer part.
   The one-declarator statement models (op_member_stmt, op_fn_stmt, method_impl_stmt, friend_stmt) are convertible to
   [typed_stmt mo K], each for the [K] that is its own text from the name on: [typed_stmt_rt] is applied to them as
   they stand, and unification finds [K]. *)
Definition typed_stmt {A} (meth_ok : bool) (K : nat -> mods -> N -> ty -> list tk -> dres A) (fuel : nat) (toks : list tk) : dres A :=
  match parse_specs toks with
  | DErr e => DErr e
  | DOk (m, b, r) =>
      if auto_next r then DErr 4
      else if negb (validate true meth_ok m) then DErr 3
      else
        match cvptr fuel (TBase b (m_const m) (m_volatile m)) r with
        | DErr e => DErr e
        | DOk (d, r1) => if is_fn d then DErr 3 else K fuel m b d r1
        end
  end.

(* at a client: `eapply (typed_stmt_rt mo _ pre post b ls)` on the statement model as it stands.  The four conditions on [X]
   are decided by its first token and close by reflexivity, as does [validate] at mo = true; at mo = false it is the client's *)
Lemma typed_stmt_rt {A} mo (K : nat -> mods -> N -> ty -> list tk -> dres A) pre post b ls X v :
  forallb spec_kw pre = true -> forallb spec_kw post = true -> forallb is_pfx ls = true -> legalL KB ls = true ->
  stops X = true -> nolb X = true -> spec_stop X = true -> auto_next X = false ->
  let m := apply_kws (pre ++ post) mods0 in
  validate true mo m = true ->
  ev (fun f => K f m b (wrap (TBase b (m_const m) (m_volatile m)) ls) X) v ->
  ev (fun f => typed_stmt mo K f (kw_toks pre ++ nm_tok b :: kw_toks post ++ P ls [] ++ X)) v.
Proof.
  intros Hpre Hpost Hpf Hleg H1 H2 H3 H4 m Hv HK.
  destruct (pfx_type_head ls X Hpf H3 H4) as [Hstop Hna].
  destruct (cvptr_pfx b (m_const m) (m_volatile m) ls X Hpf Hleg H1 H2) as [Hcv Hnf].
  unfold typed_stmt. rewrite (specs_decode_app pre post b (P ls [] ++ X) Hpre Hpost Hstop). fold m.
  rewrite Hna, Hv. cbn [negb]. eapply ev_bind; [exact Hcv|]. cbn beta iota. now rewrite Hnf.
Qed.
