(* C02 -- Declarators decode to the C++ type they denote. *)
From Coq Require Import NArith List.
Import ListNotations.
From CXV Require Import Gen.TokTy Parse.Balanced Parse.Declarator Parse.DeclSpec Parse.DeclThms Parse.DeclPins Parse.PQName Parse.TemplateArg.
From CXV Require Gen.PinsC02.
Open Scope N_scope.

(* For every legal type tree t (wf: the C++ rules on pointers, references,
   arrays and functions; array sizes bracket-balanced; parameters legal
   objects) of a variable (obj_ty: not a function type, not plain void), the
   declarator printed inside-out around the name n -- grouping parentheses
   exactly where a suffix is attached to a prefixed declarator -- and followed
   by the end of input or by a token at which the declarator is over for the
   reader (follow_ok: not `*` `&` `&&` const volatile, at which the pointer loop
   goes on, not `(` `[`, a suffix, not a NAME, not `...`, not `=`), parses (for
   every sufficiently large fuel) to exactly the name n, the tree t and the
   untouched rest. *)
Theorem declarator_decodes : forall t n rest,
  wf t -> obj_ty t -> follow_ok rest = true ->
  ev (fun f => parse_var f (decl_toks t (Some n) ++ rest)) (DOk (n, t, rest)).
Proof. exact var_roundtrip. Qed.

(* the same in parameter position, named or abstract *)
Theorem parameter_decodes : forall t nm rest,
  wf t -> kind_of t <> KFn -> follow_ok rest = true ->
  ev (fun f => param f (decl_toks t nm ++ rest)) (DOk ((t, nm), rest)).
Proof. exact param_roundtrip. Qed.

(* whole parameter lists: every parameter in order with its name, the vararg
   flag on the list it was written in, the closing parenthesis consumed *)
Theorem parameter_list_decodes : forall ps va rest,
  Forall (fun p => wf (fst p) /\ obj_ty (fst p)) ps ->
  ev (fun f => params f (params_toks ps va ++ ktok RP :: rest)) (DOk (ps, va, rest)).
Proof. exact params_roundtrip. Qed.

(* the printer that works from the outer constructor (the shape of types.py)
   and the one that works from the inner end (the order in which one reads a
   declarator) produce the same tokens *)
Theorem printer_views_agree : forall t core, D t core false = P (layers t) core.
Proof. exact D_is_P. Qed.

(* the pointer/cv/group loop on its own, for any accumulated type: the layers
   up to the last prefix operator are applied in reading order, the trailing
   suffixes are left for the caller *)
Theorem cv_ptr_or_fn_decodes : forall ls acc core rest,
  legalL (kind_of acc) ls = true -> Forall layer_ok ls -> SNk core ->
  stops (P (traill ls) core ++ rest) = true -> nolb rest = true ->
  ev (fun f => cvptr f acc (P ls core ++ rest))
     (DOk (wrap acc (mainl ls), P (traill ls) core ++ rest)).
Proof.
  intros ls acc core rest Hleg Hok Hcore Hst Hnl.
  apply (cvptr_P_gen false _ ls (le_n _)); try assumption. now apply ev_stops_g.
Qed.

(* the type-id of an alias-declaration (abstract declarator, array suffix included) *)
Theorem alias_decodes : forall t rest,
  wf t -> kind_of t <> KFn -> follow_ok rest = true ->
  ev (fun f => alias_type f (decl_toks t None ++ rest)) (DOk (t, rest)).
Proof. exact alias_roundtrip. Qed.

(* base type names without template arguments: an optional `typename` or class
   key (struct / class / union / enum [class|struct]), an optional leading '::'
   and any number of '::'-separated identifiers; or a fundamental type, where
   the compound keywords (unsigned long int ...) are kept as one group in the
   order written.  The keyword sets are the regenerated ones. *)
Theorem qualified_name_decodes : forall p rest,
  pn2_ok p rest -> parse_pqname (pn2_toks p ++ rest) = DOk (pn2_out p, rest).
Proof. exact pqname_roundtrip. Qed.

(* the code the model mirrors is the pinned one, and the token sets it tests
   the stream for are the sets the model hard-codes (regenerated on every run) *)
Theorem declarator_code_is_the_modelled_one : decl_sets_ok = true.
Proof. exact decl_sets_ok_true. Qed.

(* Template arguments.  One argument's tokens, tried as a type-id the way
   _parse_template_specialization does (base type, the pointer loop with
   nonptr_fn set, an array suffix, nothing left before the end marker), decode
   to exactly the type written -- for EVERY legal type tree, plain function
   types `R(A, B)` included, any nesting. *)
Theorem template_argument_type_decodes : forall t,
  wf t -> ev (fun f => targ_type f (decl_toks t None)) (DOk (Some t)).
Proof. exact targ_type_decodes. Qed.

(* The argument list `< a1, a2..., a3 >`: every argument is reported once, in
   order, as the kind it was written as -- a type-id as that type, tokens that do
   not start like a type (any expression of the token-level grammar) as the raw
   value -- each with its own pack flag; what follows the '>' is untouched. *)
Theorem template_argument_list_decodes : forall args rest,
  args <> [] -> Forall warg_ok args ->
  ev (fun f => tspec (S (length args)) f [] (targs_toks args ++ ktok GT :: rest)) (DOk (map warg_out args, rest)).
Proof. intros args rest H1 H2. exact (tspec_rt args [] rest _ H1 H2 (le_S _ _ (le_n _))). Qed.

(* The pointer / cv / group loop for either value of nonptr_fn: whatever it
   does from the point where only suffix layers are left, it does from the
   start of the printed declarator (any layers, any accumulated type). *)
Theorem cv_ptr_or_fn_either_flag : forall nf ls acc core rest dE rE,
  legalL (kind_of acc) ls = true -> Forall layer_ok ls -> SNk core ->
  stops (P (traill ls) core ++ rest) = true -> nolb rest = true ->
  ev (fun f => cvptr_g nf f (wrap acc (mainl ls)) (P (traill ls) core ++ rest)) (DOk (dE, rE)) ->
  stops rE = true ->
  ev (fun f => cvptr_g nf f acc (P ls core ++ rest)) (DOk (dE, rE)).
Proof. intros nf ls. exact (cvptr_P_gen nf (length ls) ls (le_n _)). Qed.

(* the functions the hand-written models above mirror (_parse_pqname, _parse_pqname_fundamental, _parse_pqname_name and _parse_template_specialization) are, token for
   token of their syntax trees, the ones the models were written against: the
   translator recomputes the digests from the live code and writes Gen/PinsC02.v
   with model_code_pinned := true only when they match *)
Theorem modelled_functions_are_the_pinned_ones : PinsC02.model_code_pinned = true.
Proof. exact (eq_refl true). Qed.

Print Assumptions qualified_name_decodes.
Print Assumptions alias_decodes.
Print Assumptions declarator_code_is_the_modelled_one.
Print Assumptions declarator_decodes.
Print Assumptions parameter_decodes.
Print Assumptions parameter_list_decodes.
Print Assumptions printer_views_agree.
Print Assumptions cv_ptr_or_fn_decodes.

Example c02_nonvacuous_hyps : wf ex_ty /\ obj_ty ex_ty /\ follow_ok [ktok SEMI] = true.
Proof. split; [exact (proj1 ex_wf)|split; [exact (proj2 ex_wf)|reflexivity]]. Qed.
Example c02_nonvacuous_run :
  parse_var 40 (decl_toks ex_ty (Some 1) ++ [ktok SEMI]) = DOk (1, ex_ty, [ktok SEMI]).
Proof. exact ex_runs. Qed.

Example c02_pqname_run :
  parse_pqname (pn2_toks (PNames false [T_enum; T_class] true 7 [8; 9]) ++ [ktok STAR])
  = DOk (mkPQ [T_enum; T_class] false [SRoot; SName 7; SName 8; SName 9], [ktok STAR])
  /\ parse_pqname (pn2_toks (PFund false [T_unsigned; T_long; T_int]) ++ [mkTk T_NAME 3])
  = DOk (mkPQ [] false [SFund [T_unsigned; T_long; T_int]], [mkTk T_NAME 3]).
Proof. vm_compute. split; reflexivity. Qed.
Print Assumptions template_argument_type_decodes.
Print Assumptions template_argument_list_decodes.
Print Assumptions cv_ptr_or_fn_either_flag.
Print Assumptions modelled_functions_are_the_pinned_ones.
