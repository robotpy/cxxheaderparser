(* Facts about the list functions Lex/PlyLoop.v is written with (list_eqb, firstn_len, count_nl, the assoc lookups,
   first_match); lex_step and lex_loop themselves are the subject of Lex/LexThms.v. *)
From Coq Require Import NArith List Bool Lia PeanoNat.
Import ListNotations.
From CXV Require Import Base.Regex Lex.PlyLoop.
Open Scope N_scope.

Lemma list_eqb_spec : forall a b, reflect (a = b) (list_eqb a b).
Proof.
  induction a as [|x a IH]; destruct b as [|y b]; cbn [list_eqb]; try (constructor; congruence).
  destruct (N.eqb_spec x y) as [->|Hxy]; cbn [andb].
  - destruct (IH b) as [->|Hab]; constructor; congruence.
  - constructor. congruence.
Qed.

Lemma firstn_len_app (w rest : list N) : firstn_len (w ++ rest) rest = w.
Proof.
  unfold firstn_len. rewrite app_length, Nat.add_sub, firstn_app, Nat.sub_diag, firstn_all.
  apply app_nil_r.
Qed.

Lemma firstn_len_tail (s rest t : list N) : firstn_len (s ++ t) (rest ++ t) = firstn_len s rest.
Proof.
  unfold firstn_len. rewrite !app_length, firstn_app.
  replace (length s + length t - (length rest + length t) - length s)%nat with O by lia.
  cbn [firstn]. rewrite app_nil_r. f_equal. lia.
Qed.

Lemma count_nl_app a b : count_nl (a ++ b) = count_nl a + count_nl b.
Proof. induction a as [|c a IH]; cbn [app count_nl]; [reflexivity|]. rewrite IH. lia. Qed.

Lemma count_nl_none (P : N -> bool) w :
  P 10 = false -> Forall (fun c => P c = true) w -> count_nl w = 0.
Proof.
  intros H10. induction 1 as [|c w Hc _ IH]; cbn [count_nl]; [reflexivity|]. rewrite IH.
  destruct (N.eqb_spec c 10) as [->|_]; [congruence|reflexivity].
Qed.

Lemma count_nl_all w : Forall (fun c => c = 10) w -> count_nl w = N.of_nat (length w).
Proof.
  induction 1 as [|c w -> _ IH]; cbn [count_nl length]; [reflexivity|].
  rewrite N.eqb_refl, IH. lia.
Qed.

Lemma assoc_str_in w l v : assoc_str w l = Some v -> In v (map snd l).
Proof.
  induction l as [|[k x] l IH]; cbn [assoc_str]; [discriminate|].
  destruct (list_eqb w k); intros H; [inversion H; subst; now left|right; auto].
Qed.

Lemma assoc_chr_in c l v : assoc_chr c l = Some v -> In v (map snd l).
Proof.
  induction l as [|[k x] l IH]; cbn [assoc_chr]; [discriminate|].
  destruct (c =? k); intros H; [inversion H; subst; now left|right; auto].
Qed.

Lemma first_match_in rs s a rest :
  first_match rs s = Some (a, rest) -> exists r, In (r, a) rs /\ match_prefix r s = Some rest.
Proof.
  induction rs as [|[r a'] rs IH]; cbn [first_match]; [discriminate|].
  destruct (match_prefix r s) eqn:E.
  - intros H; inversion H; subst. exists r. split; [now left|exact E].
  - intros H. destruct (IH H) as [r' [Hin Hm]]. exists r'. split; [now right|exact Hm].
Qed.
