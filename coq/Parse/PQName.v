(* Hand-written mirror of CxxParser._parse_pqname (called with compound_ok and
   fund_ok, as _parse_type does) for names without template arguments: an
   optional class key (struct / class / union / enum [class|struct]) or an
   optional `typename`, an optional leading '::', then NAME (:: NAME)* or a
   fundamental type, where the compound fundamentals (unsigned, long, int, ...)
   are collected as a group in the order written.  The token-type sets are the
   regenerated ones of Gen/ParserTables.v.  Template arguments, operators,
   decltype, attributes, anonymous class keys and `auto` are outside this model
   (code 4).
   The printed names the theorem speaks of are pname2 / pn2_*; pname / pn_* is
   a second written form of them, one record for both shapes, that no theorem
   uses.
   Tied to the code by calling the real _parse_pqname on the same token lists
   (harness/props/c02.py). *)
From Coq Require Import NArith List Bool Lia.
Import ListNotations.
From CXV Require Import Gen.TokTy Gen.ParserTables Parse.Balanced Parse.Declarator Parse.DeclSpec Parse.Toolkit.
Open Scope N_scope.

Inductive seg :=
| SRoot                      (* the empty segment of a leading '::' *)
| SName (n : N)
| SFund (words : list N).    (* token types of the fundamental keywords, in order *)

Record pq := mkPQ { pq_key : list N; pq_typename : bool; pq_segs : list seg }.

(* `while True: tok = token_if_in_set(compound_fundamentals) ...` *)
Fixpoint fund_group (toks : list tk) : list N * list tk :=
  match toks with
  | t :: r => if memN (kty t) compound_fundamentals then let '(ws, r') := fund_group r in (kty t :: ws, r') else ([], toks)
  | [] => ([], toks)
  end.

Definition outside_name (t : tk) : bool :=
  is T_decltype t || is T_operator t || is T_template t || is T_DBL_LBRACKET t.

(* the segment loop; the current token is [t], the stream is at [r] *)
Fixpoint pq_loop (n : nat) (acc : list seg) (t : tk) (r : list tk) : dres (list seg * list tk) :=
  match n with
  | O => DErr 9
  | S n' =>
      if outside_name t then DErr 4
      else if memN (kty t) fundamentals then
        let '(ws, r') := if memN (kty t) compound_fundamentals then fund_group r else ([], r) in
        DOk (rev (SFund (kty t :: ws) :: acc), r')                 (* no additional parts after fundamentals *)
      else if is T_NAME t then
        match r with
        | x :: r1 =>
            if is T_LIT_60 x then DErr 4                           (* template specialization *)
            else if is T_DBL_COLON x then
              match r1 with
              | t2 :: r2 =>
                  if is T_NAME t2 || is T_operator t2 || is T_template t2 || is T_decltype t2
                  then pq_loop n' (SName (kval t) :: acc) t2 r2
                  else DErr 1
              | [] => DErr 2
              end
            else DOk (rev (SName (kval t) :: acc), r)
        | [] => DOk (rev (SName (kval t) :: acc), r)
        end
      else DErr 4        (* other spellings taken as a name (final, a class key after typename, ...) *)
  end.

Definition pq_body (key : list N) (tn : bool) (t : tk) (r : list tk) : dres (pq * list tk) :=
  let start (t : tk) (r : list tk) (acc : list seg) :=
    match pq_loop (S (length r)) acc t r with
    | DOk (segs, r') => DOk (mkPQ key tn segs, r')
    | DErr e => DErr e
    end in
  (* the first section: a leading '::' gives the empty segment *)
  if is T_DBL_COLON t then
    match r with
    | t2 :: r2 => if is T_NAME t2 || is T_template t2 || is T_operator t2 then start t2 r2 [SRoot] else DErr 1
    | [] => DErr 2
    end
  else start t r [].

Definition parse_pqname (toks : list tk) : dres (pq * list tk) :=
  match toks with
  | t :: r =>
      if negb (memN (kty t) pqname_start_tokens) then DErr 1
      else if is T_auto t then DErr 4
      else if memN (kty t) name_compound_start then
        (* class key; `enum class` / `enum struct` *)
        let '(key, r1) := if is T_enum t
                          then match r with
                               | k :: r' => if is T_class k || is T_struct k then ([kty t; kty k], r') else ([kty t], r)
                               | [] => ([kty t], r)
                               end
                          else ([kty t], r) in
        match r1 with
        | a :: r2 =>
            if is T_DBL_LBRACKET a || is T_alignas a || is T___attribute__ a || is T___declspec a then DErr 4
            else if is T_NAME a || is T_DBL_COLON a then pq_body key false a r2
            else DErr 4                                           (* an unnamed class / enum: anonymous id *)
        | [] => DErr 4
        end
      else if is T_typename t then
        match r with
        | a :: r2 => if negb (memN (kty a) pqname_start_tokens) then DErr 1
                     else if memN (kty a) name_compound_start || is T_typename a || is T_auto a || is T_final a then DErr 4
                     else pq_body [] true a r2
        | [] => DErr 2
        end
      else if is T_final t then DErr 4
      else pq_body [] false t r
  | [] => DErr 2
  end.

Record pname := mkPN {
  pn_typename : bool;
  pn_key : list N;            (* [] | [struct] | [class] | [union] | [enum] | [enum; class] | [enum; struct] *)
  pn_root : bool;             (* a leading '::' *)
  pn_names : list N;
  pn_fund : option (list N)   (* a final fundamental group *)
}.

Definition names_toks (ns : list N) : list tk :=
  match ns with
  | [] => []
  | n :: r => mkTk T_NAME n :: flat_map (fun m => [ktok T_DBL_COLON; mkTk T_NAME m]) r
  end.

Definition pn_toks (q : pname) : list tk :=
  (if pn_typename q then [ktok T_typename] else []) ++ map ktok (pn_key q)
  ++ (if pn_root q then [ktok T_DBL_COLON] else []) ++ names_toks (pn_names q)
  ++ (match pn_fund q with
      | Some ws => (match pn_names q with [] => [] | _ => [ktok T_DBL_COLON] end) ++ map ktok ws
      | None => []
      end).

Definition pn_segs (q : pname) : list seg :=
  (if pn_root q then [SRoot] else []) ++ map SName (pn_names q)
  ++ (match pn_fund q with Some ws => [SFund ws] | None => [] end).

Definition key_ok (k : list N) : bool :=
  match k with
  | [] => true
  | [a] => (a =? T_struct) || (a =? T_class) || (a =? T_union) || (a =? T_enum)
  | [a; b] => (a =? T_enum) && ((b =? T_class) || (b =? T_struct))
  | _ => false
  end.

Definition fund_ok (ws : list N) : bool :=
  match ws with
  | w :: r => memN w fundamentals && (if memN w compound_fundamentals then forallb (fun x => memN x compound_fundamentals) r
                                      else match r with [] => true | _ => false end)
  | [] => false
  end.

Definition pn_wf (q : pname) : Prop :=
  key_ok (pn_key q) = true /\
  (pn_typename q = true -> pn_key q = []) /\
  (pn_names q = [] -> pn_fund q <> None /\ pn_root q = false /\ pn_key q = []) /\
  (match pn_fund q with Some ws => fund_ok ws = true | None => True end).

Definition pn_stop (q : pname) (rest : list tk) : Prop :=
  match pn_fund q with
  | Some (w :: _) => if memN w compound_fundamentals
                     then match rest with t :: _ => memN (kty t) compound_fundamentals = false | [] => True end
                     else True
  | Some [] => True
  | None => match rest with t :: _ => is T_LIT_60 t = false /\ is T_DBL_COLON t = false | [] => True end
  end.

Lemma fund_group_rt : forall ws rest,
  forallb (fun x => memN x compound_fundamentals) ws = true ->
  (match rest with t :: _ => memN (kty t) compound_fundamentals = false | [] => True end) ->
  fund_group (map ktok ws ++ rest) = (ws, rest).
Proof.
  induction ws as [|w r IH]; intros rest Hall Hrest.
  - cbn [map app]. destruct rest as [|t r]; [reflexivity|]. cbn [fund_group]. now rewrite Hrest.
  - cbn [forallb] in Hall. apply andb_prop in Hall as [Hw Hr]. cbn [map app fund_group kty ktok].
    rewrite Hw. now rewrite (IH rest Hr Hrest).
Qed.

Lemma pq_loop_fund n acc w r rest :
  fund_ok (w :: r) = true ->
  (if memN w compound_fundamentals
   then match rest with t :: _ => memN (kty t) compound_fundamentals = false | [] => True end else True) ->
  pq_loop (S n) acc (ktok w) (map ktok r ++ rest) = DOk (rev (SFund (w :: r) :: acc), rest).
Proof.
  cbn [fund_ok]. intros Hok Hstop. apply andb_prop in Hok as [Hf Hr]. cbn [pq_loop].
  assert (Ho : outside_name (ktok w) = false).
  { unfold outside_name, is. cbn [kty ktok].
    assert (E : forall c, memN c fundamentals = false -> (w =? c) = false).
    { intros c Hc. apply N.eqb_neq. intros ->. rewrite Hc in Hf. discriminate. }
    rewrite !E by reflexivity. reflexivity. }
  rewrite Ho. cbn [kty ktok]. rewrite Hf.
  destruct (memN w compound_fundamentals) eqn:Ec.
  - rewrite (fund_group_rt r rest Hr Hstop). reflexivity.
  - destruct r; [reflexivity|discriminate].
Qed.

Definition name_stop (rest : list tk) : Prop :=
  match rest with t :: _ => is T_LIT_60 t = false /\ is T_DBL_COLON t = false | [] => True end.

(* the fuel pq_body gives the loop is the length of the stream: every round takes a token *)
Lemma pq_loop_names : forall q n acc rest fuel,
  (length (flat_map (fun m => [ktok T_DBL_COLON; mkTk T_NAME m]) q ++ rest) < fuel)%nat -> name_stop rest ->
  pq_loop fuel acc (mkTk T_NAME n) (flat_map (fun m => [ktok T_DBL_COLON; mkTk T_NAME m]) q ++ rest)
  = DOk (rev acc ++ SName n :: map SName q, rest).
Proof.
  induction q as [|m q IH]; intros n acc rest fuel Hf Hstop.
  - destruct fuel as [|fuel]; [inversion Hf|]. cbn [flat_map app pq_loop map].
    change (outside_name (mkTk T_NAME n)) with false. isc. cbn iota. cbn [kval rev].
    destruct rest as [|t r]; [reflexivity|]. destruct Hstop as [H1 H2]. now rewrite H1, H2.
  - destruct fuel as [|fuel]; [inversion Hf|]. cbn [flat_map app pq_loop map].
    change (outside_name (mkTk T_NAME n)) with false. isc. cbn iota. cbn [kval].
    rewrite IH; [|cbn [flat_map app length] in Hf; lia|exact Hstop]. cbn [rev]. now rewrite <- app_assoc.
Qed.

Inductive pname2 :=
| PNames (typename : bool) (key : list N) (root : bool) (n : N) (q : list N)     (* [typename | class-key] [::] n :: q... *)
| PFund (typename : bool) (ws : list N).                                            (* [typename] fundamental group *)

Definition pn2_toks (p : pname2) : list tk :=
  match p with
  | PNames tn key root n q =>
      (if tn then [ktok T_typename] else []) ++ map ktok key ++ (if root then [ktok T_DBL_COLON] else [])
      ++ mkTk T_NAME n :: flat_map (fun m => [ktok T_DBL_COLON; mkTk T_NAME m]) q
  | PFund tn ws => (if tn then [ktok T_typename] else []) ++ map ktok ws
  end.

Definition pn2_out (p : pname2) : pq :=
  match p with
  | PNames tn key root n q => mkPQ key tn ((if root then [SRoot] else []) ++ SName n :: map SName q)
  | PFund tn ws => mkPQ [] tn [SFund ws]
  end.

Definition pn2_ok (p : pname2) (rest : list tk) : Prop :=
  match p with
  | PNames tn key root n q => key_ok key = true /\ (tn = true -> key = []) /\ name_stop rest
  | PFund tn ws =>
      fund_ok ws = true /\
      (match ws with w :: _ => if memN w compound_fundamentals
                               then match rest with t :: _ => memN (kty t) compound_fundamentals = false | [] => True end else True
                   | [] => True end)
  end.

Lemma pq_body_names (key : list N) (tn root : bool) (n : N) (q : list N) (rest : list tk) :
  name_stop rest ->
  match (if root then [ktok T_DBL_COLON] else []) ++ mkTk T_NAME n :: flat_map (fun m => [ktok T_DBL_COLON; mkTk T_NAME m]) q ++ rest with
  | t :: r => pq_body key tn t r = DOk (mkPQ key tn ((if root then [SRoot] else []) ++ SName n :: map SName q), rest)
  | [] => False
  end.
Proof.
  intros Hstop. destruct root; cbn [app]; unfold pq_body; isc; cbn iota; now rewrite pq_loop_names by (exact Hstop || apply le_n).
Qed.

Lemma key_cases k : key_ok k = true ->
  k = [] \/ k = [T_struct] \/ k = [T_class] \/ k = [T_union] \/ k = [T_enum] \/ k = [T_enum; T_class] \/ k = [T_enum; T_struct].
Proof.
  destruct k as [|a [|b [|c r]]]; cbn [key_ok]; intros H; try discriminate.
  - now left.
  - repeat (apply orb_prop in H as [H|H]); apply N.eqb_eq in H; subst; tauto.
  - apply andb_prop in H as [Ha Hb]. apply N.eqb_eq in Ha. subst a.
    apply orb_prop in Hb as [Hb|Hb]; apply N.eqb_eq in Hb; subst; tauto.
Qed.

(* the dispatch on the first tokens: a token that may start a name and is none of the keywords treated specially goes to
   the segment loop, alone or behind `typename`; so does what follows a class key *)
Definition plain_first (t : tk) : bool :=
  memN (kty t) pqname_start_tokens && negb (memN (kty t) name_compound_start)
  && negb (is T_auto t || is T_typename t || is T_final t).

Lemma pq_first (tn : bool) t r : plain_first t = true ->
  parse_pqname ((if tn then [ktok T_typename] else []) ++ t :: r) = pq_body [] tn t r.
Proof.
  unfold plain_first. intros H. apply andb_prop in H as [H H3]. apply andb_prop in H as [H1 H2].
  apply negb_true_iff in H2, H3. apply orb_false_elim in H3 as [H3 Hf]. apply orb_false_elim in H3 as [Ha Ht].
  destruct tn; cbn [app parse_pqname]; isc; now rewrite H1, H2, Ht, ?Ha, Hf.
Qed.

Lemma pq_after_key key a r : key_ok key = true -> key <> [] -> is T_NAME a || is T_DBL_COLON a = true ->
  parse_pqname (map ktok key ++ a :: r) = pq_body key false a r.
Proof.
  intros Hk Hne Ha.
  assert (E : forall c, c <> T_NAME -> c <> T_DBL_COLON -> is c a = false).
  { intros c H1 H2. unfold is in *. apply N.eqb_neq. intros E. rewrite E in Ha.
    apply orb_prop in Ha as [Ha|Ha]; apply N.eqb_eq in Ha; congruence. }
  assert (Hattr : is T_DBL_LBRACKET a || is T_alignas a || is T___attribute__ a || is T___declspec a = false).
  { now rewrite !E by discriminate. }
  assert (Hcs : is T_class a || is T_struct a = false).
  { now rewrite !E by discriminate. }
  destruct (key_cases key Hk) as [->|[->|[->|[->|[->|[->| ->]]]]]]; [contradiction|..];
    cbn [map app parse_pqname]; isc; cbn [kty ktok]; now rewrite ?Hcs, Hattr, Ha.
Qed.

(* every fundamental keyword is such a token: one sweep of the regenerated table *)
Lemma fund_plain : forallb (fun w => plain_first (ktok w) && negb (w =? T_DBL_COLON)) fundamentals = true.
Proof. reflexivity. Qed.

Theorem pqname_roundtrip p rest :
  pn2_ok p rest -> parse_pqname (pn2_toks p ++ rest) = DOk (pn2_out p, rest).
Proof.
  destruct p as [tn key root n q|tn ws]; cbn [pn2_ok pn2_toks pn2_out].
  - intros (Hkey & Htn & Hstop).
    pose proof (pq_body_names key tn root n q rest Hstop) as HB.
    rewrite <- !app_assoc. cbn [app].
    destruct key as [|k key'].
    + destruct root; cbn [map app] in *; now rewrite pq_first.
    + destruct tn; [now discriminate Htn|]. cbn [app].
      destruct root; cbn [app] in *; now rewrite pq_after_key.
  - intros (Hok & Hstop). destruct ws as [|w r]; [discriminate|].
    pose proof Hok as Hf. cbn [fund_ok] in Hf. apply andb_prop in Hf as [Hf _].
    pose proof fund_plain as H. rewrite forallb_forall in H. specialize (H w (memN_In _ _ Hf)).
    apply andb_prop in H as [H1 H2]. apply negb_true_iff in H2.
    rewrite <- app_assoc. cbn [map app]. rewrite (pq_first tn _ _ H1). unfold pq_body, is. cbn [kty ktok].
    now rewrite H2, pq_loop_fund.
Qed.
