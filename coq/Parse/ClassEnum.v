(* Hand-written mirror of CxxParser._maybe_parse_class_enum_decl: what follows
   an elaborated type (`struct S`, `enum class E`, ...) decides whether this is
   a forward declaration, a friend declaration, the start of a class or enum
   definition, or an ordinary declaration that only names the type.  The
   specifier check is ParsedTypeModifiers.validate (Parse/Specs.v); the stage-2
   token set is the regenerated one (Gen/ParserTables.v).
   Tied to the code by the differential run of harness/props/c03.py (the real
   method on the same inputs) and the digest pin of Gen/PinsC03.v. *)
From Coq Require Import NArith List Bool.
Import ListNotations.
From CXV Require Import Gen.TokTy Gen.ParserTables Parse.Balanced Parse.Declarator Parse.DeclSpec Parse.Toolkit Parse.Specs.
Open Scope N_scope.

Inductive ce_out :=
| CEForward            (* on_forward_decl *)
| CEFriend             (* on_class_friend *)
| CEClass (t : tk)     (* _parse_class_decl entered with t *)
| CEEnum (t : tk)      (* _parse_enum_decl entered with t *)
| CENone.              (* a variable or function follows *)

Definition key_is_enum (key : list N) : bool := match key with k :: _ => k =? T_enum | [] => false end.
Definition key_plain_enum (key : list N) : bool := match key with [k] => k =? T_enum | _ => false end.
Definition key_is_class (key : list N) : bool :=
  match key with [k] => (k =? T_class) || (k =? T_struct) || (k =? T_union) | _ => false end.

Definition class_enum (key : list N) (m : mods) (template is_typedef is_friend : bool) (toks : list tk)
  : dres (ce_out * list tk) :=
  match toks with
  | s :: r =>
      if is SEMI s then
        if is_typedef then DErr 1
        else if negb (validate false false m) then DErr 1
        else match key with
             | [] => DErr 1
             | _ =>
                 if key_plain_enum key && negb is_friend then DErr 1        (* enum cannot be forward declared, but `friend enum X` is fine *)
                 else if template && key_is_enum key then DErr 1            (* enum class cannot have a template *)
                 else DOk (if is_friend then CEFriend else CEForward, r)
             end
      else if memN (kty s) class_enum_stage2 then
        if negb (validate (negb is_typedef) false m) then DErr 1
        else if is_friend then DErr 1                                       (* friend declaration doesn't have extra context *)
        else if key_is_class key then DOk (CEClass s, r)
        else if template then DErr 1                                        (* enum cannot have a template *)
        else DOk (CEEnum s, r)
      else DOk (CENone, toks)
  | [] => DOk (CENone, toks)
  end.

Theorem semi_recognised key m template is_friend rest :
  key <> [] -> validate false false m = true ->
  (is_friend = false -> key_plain_enum key = false) -> (template = true -> key_is_enum key = false) ->
  class_enum key m template false is_friend (ktok SEMI :: rest) = DOk (if is_friend then CEFriend else CEForward, rest).
Proof.
  intros Hk Hv He Ht. unfold class_enum. isc.
  rewrite Hv. cbn [negb]. destruct key as [|k ks]; [contradiction|].
  assert (E : key_plain_enum (k :: ks) && negb is_friend = false).
  { destruct is_friend; [apply andb_false_r|]. now rewrite (He eq_refl). }
  rewrite E. destruct template; [rewrite (Ht eq_refl)|]; reflexivity.
Qed.

Theorem forward_decl_rules key m template is_typedef is_friend rest :
  (is_typedef = true \/ validate false false m = false \/ key = [] \/ (key_plain_enum key = true /\ is_friend = false)
   \/ (template = true /\ key_is_enum key = true)) ->
  exists e, class_enum key m template is_typedef is_friend (ktok SEMI :: rest) = DErr e.
Proof.
  intros H. unfold class_enum. isc.
  destruct is_typedef; [now exists 1|].
  destruct (validate false false m); cbn [negb]; [|now exists 1].
  destruct key as [|k ks]; [now exists 1|].
  (* the case analysis above has refuted the first three alternatives *)
  destruct H as [H|[H|[H|[[H1 H2]|[H1 H2]]]]]; try discriminate.
  - rewrite H1, H2. now exists 1.
  - rewrite H1, H2. destruct (key_plain_enum (k :: ks) && negb is_friend); now exists 1.
Qed.

Theorem definition_dispatch key m template is_typedef s rest :
  is SEMI s = false -> memN (kty s) class_enum_stage2 = true ->
  validate (negb is_typedef) false m = true ->
  class_enum key m template is_typedef false (s :: rest) =
    if key_is_class key then DOk (CEClass s, rest) else if template then DErr 1 else DOk (CEEnum s, rest).
Proof.
  intros H1 H2 Hv. unfold class_enum. rewrite H1, H2, Hv. reflexivity.
Qed.

Theorem definition_rules key m template is_typedef is_friend s rest :
  is SEMI s = false -> memN (kty s) class_enum_stage2 = true ->
  (is_friend = true \/ validate (negb is_typedef) false m = false) ->
  exists e, class_enum key m template is_typedef is_friend (s :: rest) = DErr e.
Proof.
  intros H1 H2 H. unfold class_enum. rewrite H1, H2.
  destruct (validate (negb is_typedef) false m); cbn [negb]; [|now exists 1].
  destruct H as [->|H]; [now exists 1|discriminate].
Qed.

Theorem otherwise_untouched key m template is_typedef is_friend s rest :
  is SEMI s = false -> memN (kty s) class_enum_stage2 = false ->
  class_enum key m template is_typedef is_friend (s :: rest) = DOk (CENone, s :: rest).
Proof. intros H1 H2. unfold class_enum. now rewrite H1, H2. Qed.

Example ex_class_enum :
  class_enum [T_struct] mods0 true false false [ktok SEMI] = DOk (CEForward, [])
  /\ class_enum [T_enum] mods0 false false false [ktok SEMI] = DErr 1
  /\ class_enum [T_enum; T_class] mods0 false false false [ktok T_LIT_58; mkTk T_NAME 1] = DOk (CEEnum (ktok T_LIT_58), [mkTk T_NAME 1])
  /\ class_enum [T_class] mods0 false false false [ktok T_final; ktok T_LIT_123] = DOk (CEClass (ktok T_final), [ktok T_LIT_123]).
Proof. vm_compute. repeat split. Qed.
