(* Hand-written mirror of the header part of CxxParser._parse_namespace (entered
   after the `namespace` keyword): anonymous `{`, `a::b::c {`, or the alias
   form `x = [::] a::b ;`.  A nested definition cannot be inline.
   Result: NsDef names | NsAlias alias names (a leading "::" is kept as the
   name 0, like the implementation keeps the string "::").
   Tied to the code by the differential run of harness/props/c12.py. *)
From Coq Require Import NArith List Bool Lia.
Import ListNotations.
From CXV Require Import Gen.TokTy Parse.Declarator Parse.DeclSpec Parse.Toolkit Parse.EnumList.
Open Scope N_scope.

Inductive nshead :=
| NsDef (names : list N)
| NsAlias (alias : N) (names : list N).

(* `while True: names.append(tok.value); tok = must_be(DBL_COLON, endtok) ...` entered with the first NAME consumed *)
Fixpoint ns_names_loop (n : nat) (endtok : N) (acc : list N) (toks : list tk) : dres (list N * list tk) :=
  match n with
  | O => DErr 9
  | S n' =>
      match toks with
      | t :: r =>
          if is endtok t then DOk (rev acc, r)
          else if is T_DBL_COLON t then
            match r with
            | nm :: r1 => if is T_NAME nm then ns_names_loop n' endtok (kval nm :: acc) r1 else DErr 1
            | [] => DErr 2
            end
          else DErr 1
      | [] => DErr 2
      end
  end.

Definition ns_header (inline : bool) (toks : list tk) : dres (nshead * list tk) :=
  match toks with
  | t :: r =>
      if is LBRACE t then DOk (NsDef [], r)
      else if is T_NAME t then
        match r with
        | e :: r1 =>
            if is EQ e then
              (* alias: may start with '::' *)
              let '(pre, r2) := match r1 with
                                | c :: r2 => if is T_DBL_COLON c then ([0], r2) else ([], r1)
                                | [] => ([], r1)
                                end in
              match r2 with
              | nm :: r3 =>
                  if is T_NAME nm then
                    match ns_names_loop (length r3) SEMI (kval nm :: pre) r3 with
                    | DOk (names, r4) =>
                        if inline && (1 <? N.of_nat (length names)) then DErr 3 else DOk (NsAlias (kval t) names, r4)
                    | DErr x => DErr x
                    end
                  else DErr 1
              | [] => DErr 2
              end
            else
              match ns_names_loop (length r) LBRACE [kval t] r with
              | DOk (names, r4) =>
                  if inline && (1 <? N.of_nat (length names)) then DErr 3 else DOk (NsDef names, r4)
              | DErr x => DErr x
              end
        | [] => DErr 2
        end
      else DErr 1
  | [] => DErr 2
  end.

Fixpoint path_toks (names : list N) : list tk :=
  match names with
  | [] => []
  | [n] => [mkTk T_NAME n]
  | n :: r => mkTk T_NAME n :: ktok T_DBL_COLON :: path_toks r
  end.

(* ns_header bounds the loop by the length of what it gives it: every round takes a token *)
Lemma ns_names_loop_rt endtok : endtok <> T_DBL_COLON -> forall names acc rest k,
  (length (flat_map (fun n => [ktok T_DBL_COLON; mkTk T_NAME n]) names ++ ktok endtok :: rest) <= k)%nat ->
  ns_names_loop k endtok acc
    (flat_map (fun n => [ktok T_DBL_COLON; mkTk T_NAME n]) names ++ ktok endtok :: rest)
  = DOk (rev acc ++ names, rest).
Proof.
  intros He. induction names as [|n q IH]; intros acc rest k Hk.
  - destruct k as [|k]; [inversion Hk|]. cbn [flat_map app ns_names_loop].
    unfold is at 1. cbn [kty ktok]. rewrite N.eqb_refl. now rewrite app_nil_r.
  - destruct k as [|k]; [inversion Hk|]. cbn [flat_map app ns_names_loop].
    assert (E1 : is endtok (ktok T_DBL_COLON) = false).
    { unfold is. cbn [kty ktok]. apply N.eqb_neq. congruence. }
    rewrite E1. isc. cbn [kval].
    rewrite IH by (cbn [flat_map app length] in Hk; lia).
    cbn [rev]. now rewrite <- app_assoc.
Qed.

Lemma path_toks_tail n q :
  path_toks (n :: q) = mkTk T_NAME n :: flat_map (fun m => [ktok T_DBL_COLON; mkTk T_NAME m]) q.
Proof.
  revert n. induction q as [|m q IH]; intros n; [reflexivity|].
  change (path_toks (n :: m :: q)) with (mkTk T_NAME n :: ktok T_DBL_COLON :: path_toks (m :: q)).
  rewrite IH. reflexivity.
Qed.

(* `namespace a::b::c {` *)
Theorem ns_definition_named inline n q rest :
  ns_header inline (path_toks (n :: q) ++ ktok LBRACE :: rest)
  = if inline && (1 <? N.of_nat (length (n :: q))) then DErr 3 else DOk (NsDef (n :: q), rest).
Proof.
  rewrite path_toks_tail. cbn [app ns_header]. isc.
  rewrite (ns_names_loop_rt LBRACE) by (discriminate || apply le_n).
  (* what is left is the test for '=' on the token behind the first name: '::' or '{' *)
  destruct q; reflexivity.
Qed.

(* `namespace a::b::c {` and `namespace {` *)
Theorem ns_definition_roundtrip names rest :
  ns_header false (path_toks names ++ ktok LBRACE :: rest) = DOk (NsDef names, rest).
Proof.
  destruct names as [|n q].
  - reflexivity.
  - apply ns_definition_named.
Qed.

(* `namespace x = a::b;` and `namespace x = ::a::b;` (the leading '::' is the name 0) *)
Theorem ns_alias_roundtrip x (rooted : bool) n q rest :
  ns_header false (mkTk T_NAME x :: ktok EQ :: (if rooted then [ktok T_DBL_COLON] else []) ++ path_toks (n :: q) ++ ktok SEMI :: rest)
  = DOk (NsAlias x ((if rooted then [0] else []) ++ n :: q), rest).
Proof.
  rewrite path_toks_tail. cbn [ns_header]. isc.
  destruct rooted; cbn [app].
  - isc.
    now rewrite (ns_names_loop_rt SEMI) by (discriminate || apply le_n).
  - isc.
    now rewrite (ns_names_loop_rt SEMI) by (discriminate || apply le_n).
Qed.

Theorem inline_nested_rejected n m q rest :
  ns_header true (path_toks (n :: m :: q) ++ ktok LBRACE :: rest) = DErr 3.
Proof.
  rewrite ns_definition_named.
  assert (H : (1 <? N.of_nat (length (n :: m :: q))) = true) by (apply N.ltb_lt; cbn [length]; lia).
  now rewrite H.
Qed.
