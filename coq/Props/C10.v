(* C10 -- Reported line numbers and file names are the real ones. *)
From Coq Require Import ZArith List.
Import ListNotations.
From CXV Require Import Gen.TokTy Lex.PlyLoop Lex.LexThms.
Open Scope N_scope.

(* full specification of stamping: the location of a token is (file name in
   force, line counter after the token minus the offset in force); only a
   line directive changes file name and offset, to (f, 1 + line - N) *)
Theorem stamping_spec :
  forall (fuel : nat) (st : lstate) (s : list N) (ps : list piece) (o : outcome),
    lex_loop fuel st s = (ps, o) -> locs_ok st ps.
Proof. exact LexThms.lex_locs. Qed.

(* the line counter is the physical line: 1 + newlines before the token *)
Theorem line_counter_is_physical :
  forall (file s : list N) (ps : list piece) (o : outcome) (pre : list piece)
         (ty : N) (t : list N) (line : N) (loc : list N * Z) (post : list piece),
    lex file s = (ps, o) -> ps = pre ++ PTok ty t line loc :: post ->
    line = 1 + count_nl (all_text pre).
Proof. exact LexThms.lex_lineno. Qed.

Theorem lex_error_location :
  forall (fuel : nat) (st : lstate) (s : list N) (ps : list piece) (k : N) (loc : list N * Z) (t : list N),
    lex_loop fuel st s = (ps, Failed k loc t) ->
    loc = loc_of (fold_left after_piece ps st).
Proof. exact LexThms.lex_error_location. Qed.

(* the lexer is independent of its line counter: starting k lines later shifts
   every stamped line (and error line) by exactly k when no line directive occurs *)
Theorem prepend_shift :
  forall (k : N) (fuel : nat) (st : lstate) (s : list N) (ps : list piece) (o : outcome),
    lex_loop fuel st s = (ps, o) -> no_rebase ps ->
    lex_loop fuel (shift_state k st) s =
      (map (shift_piece k) ps,
       match o with Failed kind loc t => Failed kind (shift_loc k loc) t | _ => o end).
Proof. exact LexThms.lex_shift. Qed.

(* ... and the run after any prefix of pieces is the run on the remaining text
   from the state reached, so prepended material only acts through that state *)
Theorem resume_after_prefix :
  forall (pre : list piece) (fuel : nat) (st : lstate) (s : list N) (ps : list piece) (o : outcome),
    lex_loop fuel st s = (pre ++ ps, o) -> (ps <> [] \/ o = Done) ->
    exists fuel' s', s = all_text pre ++ s' /\
      lex_loop fuel' (fold_left after_piece pre st) s' = (ps, o).
Proof. intros pre fuel st s ps o H _. exact (LexThms.lex_resume pre fuel st s ps o H). Qed.

Print Assumptions stamping_spec.
Print Assumptions line_counter_is_physical.
Print Assumptions lex_error_location.
Print Assumptions prepend_shift.
Print Assumptions resume_after_prefix.

(* non-vacuity: x NL #line 7 "a" NL y  -> y is stamped (a, 7) *)
Example c10_nonvacuous :
  fst (lex [102] [120; 10; 35; 108; 105; 110; 101; 32; 55; 32; 34; 97; 34; 10; 121]) =
  [PTok T_NAME [120] 1 ([102], 1%Z); PTok T_NEWLINE [10] 1 ([102], 2%Z);
   PDrop [35; 108; 105; 110; 101; 32; 55; 32; 34; 97; 34];
   PTok T_NEWLINE [10] 2 ([97], 7%Z); PTok T_NAME [121] 3 ([97], 7%Z)].
Proof. vm_compute. reflexivity. Qed.
