(* C01 -- Namespace-scope declarations are extracted faithfully.  PARTIAL:
   the statement forms below are proved for inputs of any size; the rest of
   the parser's dispatch is decided by the AST-first search (see DESIGN.md). *)
From Coq Require Import NArith List Bool.
Import ListNotations.
From CXV Require Import Gen.TokTy Parse.BalancedThms Parse.Declarator Parse.DeclSpec Parse.DeclThms Parse.DeclPins.
From CXV Require Gen.PinsC01.
From CXV Require Import Parse.PQName Parse.Using Parse.EnumDecl Parse.ParamsX Parse.DeclStmt Parse.TemplateStmt.
From CXV Require Import Parse.MethodTail Parse.MemberStmt Parse.ConvOp Parse.OperatorMember Parse.OperatorFn Parse.MethodImpl Parse.TemplateArg Parse.TemplateInst.
From CXV Require Import Parse.DispatchLang Gen.Dispatch Parse.DispatchExternThms Parse.DispatchInlineThms.
From CXV Require Import Parse.EnumList Parse.Specs Parse.VarStmt Parse.FnTail Parse.Init Parse.Members Parse.Template.
From CXV Require Import Parse.Fold Parse.FoldPlace.
Open Scope N_scope.

(* `T d1, d2, ..., dn;` -- one entry per declarator, in source order, each with
   its own name and its own type built on the shared base type T (b, c, v);
   nothing missing, nothing extra, the rest of the input untouched.  The
   declarators are arbitrary legal type trees (any nesting depth). *)
Theorem one_entry_per_declarator_partial : forall b c v (ts : list (ty * N)) rest,
  ts <> [] ->
  Forall (fun p => DeclSpec.wf (fst p) /\ obj_ty (fst p) /\ base_of (fst p) = (b, c, v)) ts ->
  ev (fun f => parse_decls (length ts) f
                 (base_toks3 b c v ++ join_comma (map (fun p => D (fst p) [mkTk T_NAME (snd p)] false) ts)
                  ++ ktok SEMI :: rest))
     (DOk (map (fun p => (snd p, fst p)) ts, rest)).
Proof. exact decls_roundtrip. Qed.

(* Specifiers: the flags reported for a declaration are exactly the keywords
   written around the type name -- before it, after it, in any order, repeated
   or not (const volatile constexpr extern inline static explicit virtual
   mutable; __inline and __forceinline count as inline). *)
Theorem specifiers_decode_partial : forall pre post n rest,
  forallb spec_kw pre = true -> forallb spec_kw post = true -> spec_stop rest = true ->
  parse_specs (kw_toks pre ++ nm_tok n :: kw_toks post ++ rest)
  = DOk (apply_kws post (apply_kws pre mods0), n, rest).
Proof. exact specs_decode_lemma. Qed.

Theorem specifier_sets_are_the_codes : spec_sets_ok = true.
Proof. exact spec_sets_ok_true. Qed.

Theorem specifier_order_irrelevant : forall ks ks',
  forallb spec_kw ks = true -> Permutation.Permutation ks ks' -> apply_kws ks mods0 = apply_kws ks' mods0.
Proof. exact specifier_order_irrelevant_lemma. Qed.

Theorem specifier_flags_are_memberships : forall ks m, forallb spec_kw ks = true ->
  m_const (apply_kws ks m) = (m_const m || has T_const ks) /\ m_volatile (apply_kws ks m) = (m_volatile m || has T_volatile ks) /\
  m_constexpr (apply_kws ks m) = (m_constexpr m || has T_constexpr ks) /\ m_extern (apply_kws ks m) = (m_extern m || has T_extern ks) /\
  m_inline (apply_kws ks m) = (m_inline m || (has T_inline ks || has T___inline ks || has T___forceinline ks)) /\
  m_static (apply_kws ks m) = (m_static m || has T_static ks) /\ m_explicit (apply_kws ks m) = (m_explicit m || has T_explicit ks) /\
  m_virtual (apply_kws ks m) = (m_virtual m || has T_virtual ks) /\ m_mutable (apply_kws ks m) = (m_mutable m || has T_mutable ks).
Proof. intros ks m Hk. rewrite apply_kws_eq by exact Hk. repeat split. Qed.

(* A whole variable statement `spec* T spec* d1, ..., dn;` at namespace scope:
   the flags of the keywords written, const / volatile on the base type of
   every declarator, one entry per declarator in source order. *)
Theorem variable_statement_decodes_partial : forall pre post b items rest,
  forallb spec_kw pre = true -> forallb spec_kw post = true ->
  has T_explicit (pre ++ post) = false -> has T_virtual (pre ++ post) = false -> has T_mutable (pre ++ post) = false ->
  items <> [] ->
  Forall (fun it => legalL KB (fst it) = true /\ Forall layer_ok (fst it) /\ kind_end KB (fst it) <> KFn) items ->
  ev (fun f => var_stmt (length items) f
                 (kw_toks pre ++ nm_tok b :: kw_toks post ++
                  join_comma (map (fun it => P (fst it) [mkTk T_NAME (snd it)]) items) ++ ktok SEMI :: rest))
     (DOk (apply_kws (pre ++ post) mods0,
           map (fun it => (snd it, wrap (TBase b (m_const (apply_kws (pre ++ post) mods0)) (m_volatile (apply_kws (pre ++ post) mods0))) (fst it))) items,
           rest)).
Proof. exact var_stmt_roundtrip. Qed.

(* ... and with initialisers: `= expr` reports exactly the tokens of expr (any
   token-level expression up to the ',' or ';' at depth 0), `{ ... }` the whole
   brace group; a declarator without one reports no value. *)
Theorem variable_statement_with_initialisers_decodes_partial : forall pre post b items rest,
  forallb spec_kw pre = true -> forallb spec_kw post = true ->
  has T_explicit (pre ++ post) = false -> has T_virtual (pre ++ post) = false -> has T_mutable (pre ++ post) = false ->
  items <> [] -> Forall item_ok items ->
  ev (fun f => var_stmt_i (length items) f
                 (kw_toks pre ++ nm_tok b :: kw_toks post ++ join_comma (map item_toks items) ++ ktok SEMI :: rest))
     (DOk (apply_kws (pre ++ post) mods0,
           map (fun it => (snd (fst it),
                           wrap (TBase b (m_const (apply_kws (pre ++ post) mods0)) (m_volatile (apply_kws (pre ++ post) mods0))) (fst (fst it)),
                           init_value (snd it))) items,
           rest)).
Proof. exact var_stmt_i_roundtrip. Qed.

(* typedef statements: one entry per declarator on the shared base type; only
   const / volatile may accompany the type, no bit-field, no initialiser *)
Theorem typedef_statement_decodes_partial : forall pre post b items rest,
  forallb (fun k => (k =? T_const) || (k =? T_volatile)) (pre ++ post) = true ->
  items <> [] -> Forall (mitem_ok false true) items ->
  let m := apply_kws (pre ++ post) mods0 in
  ev (fun f => typedef_stmt (length items) f
                 (kw_toks pre ++ nm_tok b :: kw_toks post ++ join_comma (map mitem_toks items) ++ ktok SEMI :: rest))
     (DOk (map (mitem_out (TBase b (m_const m) (m_volatile m))) items, rest)).
Proof. exact typedef_stmt_roundtrip. Qed.

(* A function declaration `R-declarator( name ( parameters ) )`: the reported
   return type, name, parameter list (types and names in order) and vararg
   flag are those written, for every legal function type (any nesting of the
   return type and of the parameter types); the tokens after the ')' are left. *)
Theorem function_declaration_decodes_partial : forall rt ps va n rest,
  DeclSpec.wf (TFn rt ps va) -> nolb rest = true ->
  ev (fun f => fn_decl f (decl_toks (TFn rt ps va) (Some n) ++ rest)) (DOk (n, rt, ps, va, rest)).
Proof. exact fn_roundtrip. Qed.

(* A whole function statement: the declaration head as above, then throw(...)
   or noexcept[(...)] with exactly the tokens written, then nothing, a body
   (skipped whatever brace-balanced tokens it holds) or `= delete`; the flags
   has_body / deleted are those written and parsing resumes right after. *)
Theorem function_statement_decodes_partial : forall rt ps va n th ne nep en rest,
  DeclSpec.wf (TFn rt ps va) -> tail_ok th ne nep en (after_tail en rest) ->
  ev (fun f => fn_stmt f (decl_toks (TFn rt ps va) (Some n) ++ spec_toks th ne nep ++ ending_toks en ++ after_tail en rest))
     (DOk (n, rt, ps, va, tail_of th ne en, rest)).
Proof. exact fn_stmt_roundtrip. Qed.

(* Template headers: `< p1, ..., pn >` reports every parameter once, in order,
   with its kind (type / template template / non-type), key (class or typename),
   pack flag, name, default (exactly the tokens written) and, for a template
   template parameter, its own parameter list -- to any nesting depth; the
   non-type parameters are declarators of any legal type. *)
Theorem template_parameters_decode_partial : forall l R,
  Forall tp_ok l -> ev (fun f => tdecl f (tlist_toks l ++ R)) (DOk (l, R)).
Proof. exact template_params_roundtrip. Qed.

(* An enumerator list `{ A, B [[attr]] alignas(8) = expr, C }` (a trailing ','
   allowed; any number of attribute groups behind a name, the first a [[ ]]
   group, each with any nested contents): every enumerator is reported once,
   in order, with exactly the tokens of its own value (any token-level
   expression: brackets nested, '<' '>' free) and none where none is written
   -- never a neighbour's -- for lists of any length; the attributes are
   dropped; what follows the '}' is untouched. *)
Theorem enumerators_reported_exactly_partial : forall items tc rest,
  Forall wenum_ok items -> (items = [] -> tc = false) ->
  enum_list (S (length items)) [] (enum_body_toks items tc ++ rest) = DOk (map strip_e items, rest).
Proof. intros items tc rest H _. apply enum_list_rt; [exact H|apply le_n]. Qed.

(* The collecting visitor: the items found in the namespace reached by [path]
   are exactly the items written directly in that namespace -- through extern
   blocks, through `namespace a::b { }` headers, across re-openings -- in source
   order; for every forest of blocks, any nesting. *)
Theorem items_land_where_written : forall body path,
  items_of (lookup path (fold_ns body)) = flat_map (written path) body.
Proof. exact items_land_where_written_lemma. Qed.

(* the code the model mirrors is the pinned one, and the token sets it tests
   the stream for are the sets the model hard-codes (regenerated on every run) *)
Theorem declarator_code_is_the_modelled_one : decl_sets_ok = true.
Proof. exact decl_sets_ok_true. Qed.

(* using statements (after the keyword): `using namespace [::] a::b;` reports
   exactly the names written, in order, and the leading '::'; `using [typename]
   [::] a::b::c;` reports the qualified name as written (the typename keyword
   is not part of it); `using A = type-id;` reports the alias name and exactly
   the type written, for every legal type tree that is not a plain function
   type -- each followed by its ';', the rest untouched. *)
Theorem using_directive_decodes_partial : forall root n q fuel rest,
  using_stmt false false fuel (udir_toks root n q ++ ktok SEMI :: rest) = DOk (UDir root (n :: q), rest).
Proof. exact using_directive_roundtrip. Qed.

Theorem using_declaration_decodes_partial : forall (tn root : bool) n q in_class fuel rest,
  (q = [] -> root = true \/ tn = true) ->
  using_stmt in_class false fuel (pn2_toks (PNames tn [] root n q) ++ ktok SEMI :: rest)
  = DOk (UDecl (pn2_out (PNames false [] root n q)), rest).
Proof. intros tn root n q in_class fuel rest _. apply using_declaration_any. Qed.

Theorem using_alias_decodes_partial : forall a t in_class has_template rest,
  DeclSpec.wf t -> kind_of t <> KFn ->
  ev (fun f => using_stmt in_class has_template f (mkTk T_NAME a :: ktok EQ :: decl_toks t None ++ ktok SEMI :: rest))
     (DOk (UAlias a t, rest)).
Proof. exact using_alias_roundtrip. Qed.

(* enum declarations behind the name: `enum E : base;` reports exactly the base
   written (a qualified name or a fundamental group in the order written);
   `enum E [: base] { ... };` reports the base (or none) and every enumerator
   once, in order, with its own value. *)
Theorem enum_forward_decodes_partial : forall p rest,
  base_ok p (ktok SEMI :: rest) ->
  enum_decl false (ktok COLON :: pn2_toks p ++ ktok SEMI :: rest) = DOk (EFwd (pn2_out p), rest).
Proof. exact enum_forward_roundtrip. Qed.

Theorem enum_definition_decodes_partial : forall p items tc rest,
  (match p with Some p => base_ok p (ktok LBRACE :: enum_body_toks items tc ++ ktok SEMI :: rest) | None => True end) ->
  Forall wenum_ok items -> (items = [] -> tc = false) ->
  enum_decl false (base_toks p ++ ktok LBRACE :: enum_body_toks items tc ++ ktok SEMI :: rest)
  = DOk (EDef (option_map pn2_out p) (map strip_e items), rest).
Proof. intros p items tc rest Hb H _. now apply enum_definition_roundtrip. Qed.

(* The parameter list of a function declaration with default values:
   `( T1 a = v1, T2 b, ... )` reports every parameter once, in order, with
   exactly its type (any legal object type), its name and the tokens of its own
   default value (any expression of the token-level grammar, read up to the
   ',' or ')' that ends it), and the vararg flag. *)
Theorem parameters_with_defaults_decode_partial : forall ps va rest,
  Forall xp_ok ps ->
  ev (fun f => params_x f (xps_toks ps va ++ ktok RP :: rest)) (DOk (ps, va, rest)).
Proof. exact parameters_with_defaults_roundtrip. Qed.

(* How _parse_declarations / _parse_decl put one declaration statement together at
   namespace scope: `spec* T spec* d1, d2, ..., dn <end>` where every d is a
   variable declarator (any legal object type) with an optional initialiser, or
   a function declarator (any legal return type, any parameter list of the
   declarator grammar) with an optional throw / noexcept specification -- in
   any mixture and any order (`int a = 1, f(int) noexcept, *b{};`) -- and <end>
   is ';' or, behind a last function declarator, a body or `= delete ;`.
   The statement yields exactly one entry per declarator, in source order, each
   of its own kind (a declarator with a parameter list behind its name is a
   function, every other one a variable), built on the base type and the flags
   of the statement; values and exception specifications are the source tokens
   of their own declarator; the body is skipped exactly and the rest of the
   input is untouched. *)
Theorem declaration_statement_decodes_partial : forall pre post b items last le rest,
  forallb spec_kw pre = true -> forallb spec_kw post = true ->
  has T_explicit (pre ++ post) = false -> has T_virtual (pre ++ post) = false -> has T_mutable (pre ++ post) = false ->
  Forall ditem_ok items -> ditem_ok last -> last_ok last le ->
  let m := apply_kws (pre ++ post) mods0 in
  let bt := TBase b (m_const m) (m_volatile m) in
  ev (fun f => decl_stmt (S (length items)) f
                 (kw_toks pre ++ nm_tok b :: kw_toks post ++ items_toks items last le ++ rest))
     (DOk (m, map (ditem_entry bt) items ++ [last_entry bt last le], rest)).
Proof. exact decl_stmt_roundtrip. Qed.

Theorem declarator_kinds_follow_the_source : forall b items last le,
  map is_fn_entry (map (ditem_entry b) items ++ [last_entry b last le]) = map last_is_fn (items ++ [last]).
Proof. exact kinds_follow_declarators. Qed.

(* typedef statements through the same loop: `typedef cv* T cv* d1, ..., dn ;` where every d is an object declarator or a
   function declarator (with an optional exception specification), in any mixture: one typedef per declarator, in order,
   of the object type / of the function type built on the shared base type *)
Theorem typedef_statement_with_function_types_decodes_partial : forall pre post b items last rest,
  forallb (fun k => (k =? T_const) || (k =? T_volatile)) (pre ++ post) = true ->
  Forall td_item_ok items -> td_item_ok last ->
  let m := apply_kws (pre ++ post) mods0 in
  let bt := TBase b (m_const m) (m_volatile m) in
  ev (fun f => typedef_decl_stmt (S (length items)) f
                 (kw_toks pre ++ nm_tok b :: kw_toks post ++ items_toks items last LSemi ++ rest))
     (DOk (map (ditem_entry bt) items ++ [ditem_entry bt last], rest)).
Proof. exact typedef_decl_stmt_roundtrip. Qed.

(* The keyword handlers in front of a declaration, as TRANSLATED
   (Gen/Dispatch.v, regenerated from the ASTs of _parse_extern / _parse_inline / _parse_typedef on every run;
   the interpreter of Parse/DispatchLang.v runs the translated text):
   `extern "C" {` opens an extern block with that linkage; `extern "C" <declaration>` pushes the string back
   and hands the whole statement, from the `extern` keyword on, to the declaration parser; `extern template`
   is an explicit instantiation flagged extern; any other `extern` is a declaration; `inline namespace` goes
   to the namespace parser flagged inline, any other `inline` is a declaration; `typedef` hands the tokens
   behind the keyword to the declaration parser flagged is_typedef. *)
Theorem extern_block_is_opened : forall kw str lb R,
  kty str = T_STRING_LITERAL -> kty lb = T_LIT_123 ->
  run prog_parse_extern false kw (str :: lb :: R) = OOpenExtern (Some str) R.
Proof. exact extern_block_opens. Qed.
Theorem extern_linkage_declaration_keeps_every_token : forall kw str x R,
  kty str = T_STRING_LITERAL -> kty x <> T_LIT_123 ->
  run prog_parse_extern false kw (str :: x :: R) = OCall F_declarations [RTok (Some kw); RDox] [] (str :: x :: R).
Proof. exact extern_linkage_declaration. Qed.
Theorem extern_template_is_an_instantiation : forall kw t R,
  kty t = T_template ->
  run prog_parse_extern false kw (t :: R) = OCall F_template_instantiation [RDox; RBool true] [] R.
Proof. exact extern_template_is_instantiation. Qed.
Theorem plain_extern_is_a_declaration : forall kw x R,
  kty x <> T_STRING_LITERAL -> kty x <> T_template ->
  run prog_parse_extern false kw (x :: R) = OCall F_declarations [RTok (Some kw); RDox] [] (x :: R).
Proof. exact extern_declaration. Qed.
Theorem inline_namespace_goes_to_the_namespace_parser : forall kw ns R,
  kty ns = T_namespace ->
  forall ic, run prog_parse_inline ic kw (ns :: R) = OCall F_namespace [RTok (Some ns); RDox] [(3, RBool true)] R.
Proof. exact inline_namespace_dispatch. Qed.
Theorem other_inline_is_a_declaration : forall kw x R ic,
  kty x <> T_namespace ->
  run prog_parse_inline ic kw (x :: R) = OCall F_declarations [RTok (Some kw); RDox] [] (x :: R).
Proof. exact inline_declaration_dispatch. Qed.
Theorem typedef_goes_to_the_declaration_parser : forall kw x R ic,
  run prog_parse_typedef ic kw (x :: R) = OCall F_declarations [RTok (Some x); RDox] [(1, RBool true)] R.
Proof. exact typedef_dispatch. Qed.

(* Operator functions at namespace scope: `spec* T spec* <pointer / reference operators> operator <op> ( params ) <tail>` is one
   function whose operator is exactly the tokens written behind `operator`, with return type, parameters, specifier flags,
   exception specification and ending (';', a body, `= delete`) as written *)
Theorem operator_function_decodes_partial : forall pre post b ls o ps va th ne nep en rest,
  forallb spec_kw pre = true -> forallb spec_kw post = true ->
  has T_explicit (pre ++ post) = false -> has T_virtual (pre ++ post) = false -> has T_mutable (pre ++ post) = false ->
  all_pfx ls = true -> legalL KB ls = true -> op_ok o ->
  layer_ok (LFn ps va) -> tail_ok th ne nep en (after_tail en rest) ->
  let m := apply_kws (pre ++ post) mods0 in
  let t := wrap (TBase b (m_const m) (m_volatile m)) ls in
  ev (fun f => op_fn_stmt f (kw_toks pre ++ nm_tok b :: kw_toks post ++ P ls [] ++ ktok T_operator :: op_toks o ++
                             ktok LP :: params_toks ps va ++ ktok RP :: spec_toks th ne nep ++ ending_toks en ++ after_tail en rest))
     (DOk (mkOpF m (op_toks o) t ps va (tail_of th ne en), rest)).
Proof. intros pre post b ls o ps va th ne nep en rest Hpre Hpost Hex Hvi _. now apply op_fn_roundtrip. Qed.

(* Method definitions outside their class: `spec* T spec* <pointer / reference operators> A::B::m ( params ) quals { body }` is one
   method definition with exactly the name segments written, the return type, parameters and qualifier set written, the body
   skipped exactly and the statement ended by it *)
Theorem out_of_class_method_definition_decodes_partial : forall pre post b ls n q ps va quals soup rest,
  forallb spec_kw pre = true -> forallb spec_kw post = true ->
  has T_explicit (pre ++ post) = false -> has T_virtual (pre ++ post) = false -> has T_mutable (pre ++ post) = false ->
  all_pfx ls = true -> legalL KB ls = true -> q <> [] ->
  layer_ok (LFn ps va) -> Forall mq_ok quals -> bal tk kty T_LIT_123 T_LIT_125 soup ->
  let m := apply_kws (pre ++ post) mods0 in
  let t := wrap (TBase b (m_const m) (m_volatile m)) ls in
  ev (fun f => method_impl_stmt f (kw_toks pre ++ nm_tok b :: kw_toks post ++ P ls [] ++ qual_toks n q ++
                                   ktok LP :: params_toks ps va ++ ktok RP :: flat_map mq_toks quals ++ mend_toks (MeBody soup) ++ rest))
     (DOk (mkMI m (SName n :: map SName q) t ps va (apply_end (MeBody soup) (quals_of quals)), rest)).
Proof. intros pre post b ls n q ps va quals soup rest Hpre Hpost Hex Hvi _. now apply method_impl_roundtrip. Qed.

(* Explicit instantiations (behind `template` / `extern template`): `class|struct [::] A::B::X < args > ;` reports the name
   segments written and every template argument once, in order, as the kind it was written as (a type-id as that type,
   anything else as its raw tokens, with its own pack flag); what follows the ';' is untouched *)
Theorem explicit_instantiation_decodes_partial : forall (key : tk) (root : bool) q last args rest,
  is T_class key || is T_struct key = true -> args <> [] -> Forall warg_ok args ->
  ev (fun f => inst_stmt f (key :: (if root then [ktok T_DBL_COLON] else []) ++ qnames_toks q last ++ ktok T_LIT_60 :: targs_toks args ++
                            ktok T_LIT_62 :: ktok SEMI :: rest))
     (DOk (mkTI root (q ++ [last]) (map warg_out args), rest)).
Proof. exact inst_stmt_roundtrip. Qed.

(* What a `template` statement is handed on to (_parse_template): behind ONE header
   the next token selects the continuation -- `using`, `friend`, `concept`, a
   requires-clause, or (any other token) a declaration that starts with that
   token -- and the continuation receives exactly that header (any parameter list
   of the template-parameter grammar) and the tokens behind the selecting token;
   behind SEVERAL headers it is always a declaration and it receives all the
   headers, in source order; without a '<' the statement is an explicit
   instantiation and nothing has been consumed. *)
Theorem template_statement_one_header_partial : forall h k R n,
  Forall tp_ok h -> is T_template k = false ->
  ev (fun f => template_stmt n f (tlist_toks h ++ k :: R)) (DOk (kind_of_tok k, [h], R)).
Proof. exact template_stmt_one. Qed.

Theorem template_statement_many_headers_partial : forall h hs k R,
  Forall tp_ok h -> Forall (Forall tp_ok) hs -> hs <> [] -> is T_template k = false ->
  ev (fun f => template_stmt (length hs) f (tlist_toks h ++ headers_toks hs ++ k :: R)) (DOk (K_DECL, h :: hs, R)).
Proof. exact template_stmt_many. Qed.

Theorem explicit_instantiation_consumes_nothing : forall n f toks,
  match toks with t :: _ => is LT t = false | [] => True end ->
  template_stmt n f toks = DOk (K_INST, [], toks).
Proof. exact template_stmt_inst. Qed.

(* A concept definition `NAME = expr` reports its name and exactly the tokens of
   the constraint expression (any expression of the token-level grammar); the
   ',' or ';' that ends it is left in the stream; inside a class it is rejected. *)
Theorem concept_decodes_partial : forall n e s R,
  Expr tk kty concept_terms e -> (is COMMA s = true \/ is SEMI s = true) ->
  concept_stmt false (mkTk T_NAME n :: ktok EQ :: e ++ s :: R) = DOk (n, e, s :: R).
Proof. exact concept_roundtrip. Qed.

Theorem concept_in_class_is_rejected : forall toks x, concept_stmt true toks <> DOk x.
Proof. exact concept_in_class_rejected. Qed.

(* the functions the hand-written models above mirror (listed, each with its digest, in Gen/PinsC01.v) are, token for
   token of their syntax trees, the ones the models were written against: the
   translator recomputes the digests from the live code and writes Gen/PinsC01.v
   with model_code_pinned := true only when they match *)
Theorem modelled_functions_are_the_pinned_ones : PinsC01.model_code_pinned = true.
Proof. exact (eq_refl true). Qed.

Print Assumptions declarator_code_is_the_modelled_one.
Print Assumptions one_entry_per_declarator_partial.
Print Assumptions specifiers_decode_partial.
Print Assumptions specifier_sets_are_the_codes.
Print Assumptions specifier_order_irrelevant.
Print Assumptions specifier_flags_are_memberships.
Print Assumptions variable_statement_decodes_partial.
Print Assumptions variable_statement_with_initialisers_decodes_partial.
Print Assumptions typedef_statement_decodes_partial.
Print Assumptions function_declaration_decodes_partial.
Print Assumptions function_statement_decodes_partial.
Print Assumptions template_parameters_decode_partial.
Print Assumptions enumerators_reported_exactly_partial.
Print Assumptions items_land_where_written.

Example c01_decls_run :
  parse_decls 2 40
    (base_toks3 5 true false ++
     join_comma [D (TPtr (TBase 5 true false) false false) [mkTk T_NAME 1] false;
                 D (TArr (TBase 5 true false) [mkTk 3 9]) [mkTk T_NAME 2] false] ++ [ktok SEMI])
  = DOk ([(1, TPtr (TBase 5 true false) false false); (2, TArr (TBase 5 true false) [mkTk 3 9])], []).
Proof. vm_compute. reflexivity. Qed.

Example c01_place_run :
  items_of (lookup [7; 8] (fold_ns [ENs [7] [EItem 1 1; ENs [8] [EItem 1 2]]; EItem 2 3;
                                    ENs [7; 8] [EExtern [EItem 1 4]; EClass 9 [EItem 1 5]]]))
  = [(1, 2); (1, 4)].
Proof. vm_compute. reflexivity. Qed.

Example c01_enum_run :
  enum_list 3 [] (enum_body_toks [(1, [ABr [mkTk T_NAME 4]; AAl [mkTk 3 8]], None); (2, [], Some [mkTk 3 7; mkTk LP 0; mkTk 3 8; mkTk RP 0])] true ++ [ktok SEMI])
  = DOk ([(1, None); (2, Some [mkTk 3 7; mkTk LP 0; mkTk 3 8; mkTk RP 0])], [ktok SEMI]).
Proof. vm_compute. reflexivity. Qed.

Example c01_stmt_run :
  var_stmt 2 40 (kw_toks [T_static; T_const] ++ nm_tok 5 :: kw_toks [T_constexpr] ++
                 join_comma [P [LPtr true false] [mkTk T_NAME 1]; P [LArr [mkTk 3 9]] [mkTk T_NAME 2]] ++ [ktok SEMI])
  = DOk (mkMods true false true false false true false false false,
         [(1, TPtr (TBase 5 true false) true false); (2, TArr (TBase 5 true false) [mkTk 3 9])], []).
Proof. vm_compute. reflexivity. Qed.
Print Assumptions using_directive_decodes_partial.
Print Assumptions using_declaration_decodes_partial.
Print Assumptions using_alias_decodes_partial.
Print Assumptions enum_forward_decodes_partial.
Print Assumptions enum_definition_decodes_partial.
Print Assumptions parameters_with_defaults_decode_partial.
Print Assumptions declaration_statement_decodes_partial.
Print Assumptions declarator_kinds_follow_the_source.
Print Assumptions typedef_statement_with_function_types_decodes_partial.
Print Assumptions extern_block_is_opened.
Print Assumptions extern_linkage_declaration_keeps_every_token.
Print Assumptions extern_template_is_an_instantiation.
Print Assumptions plain_extern_is_a_declaration.
Print Assumptions inline_namespace_goes_to_the_namespace_parser.
Print Assumptions other_inline_is_a_declaration.
Print Assumptions typedef_goes_to_the_declaration_parser.
Print Assumptions operator_function_decodes_partial.
Print Assumptions out_of_class_method_definition_decodes_partial.
Print Assumptions explicit_instantiation_decodes_partial.
Print Assumptions template_statement_one_header_partial.
Print Assumptions template_statement_many_headers_partial.
Print Assumptions explicit_instantiation_consumes_nothing.
Print Assumptions concept_decodes_partial.
Print Assumptions concept_in_class_is_rejected.

Example c01_mixed_stmt_run :
  decl_stmt 3 60 (kw_toks [T_static] ++ nm_tok 5 :: kw_toks [T_const] ++
                  items_toks [IVar [LPtr false false] 1 (InitEq [mkTk 3 9]);
                              IFn [LRef] [(TBase 6 false false, Some 7)] false 2 None (Some []) false]
                             (IVar [LArr [mkTk 3 4]] 3 NoInit) LSemi ++ [ktok SEMI])
  = DOk (mkMods true false false false false true false false false,
         [EVar 1 (TPtr (TBase 5 true false) false false) (Some [mkTk 3 9]);
          EFn 2 (TRef (TBase 5 true false)) [(TBase 6 false false, Some 7)] false (mkTail None (Some []) false false);
          EVar 3 (TArr (TBase 5 true false) [mkTk 3 4]) None], [ktok SEMI]).
Proof. vm_compute. reflexivity. Qed.
Print Assumptions modelled_functions_are_the_pinned_ones.
