(* Hand-written mirror of CxxParser._parse_template_decl and
   _parse_template_type_parameter: the parameter list of a template header --
   type parameters (class / typename, pack, name, default), template template
   parameters (a nested header, any depth) and non-type parameters (read by
   _parse_parameter, Parse/Declarator.v param).  A `typename` that introduces a
   dependent type name and defaults of non-type parameters are outside this
   model (code 4).
   Tied to the code by the differential run of harness/props/c01.py. *)
From Coq Require Import NArith List Bool.
Import ListNotations.
From CXV Require Import Gen.TokTy Parse.Balanced Parse.BalancedThms Parse.Declarator Parse.DeclSpec Parse.DeclThms.
Open Scope N_scope.

Definition LT := T_LIT_60.
Definition GTk := T_LIT_62.
Definition tmpl_terms : list N := [COMMA; GTk].

Inductive tparam :=
| TPType (key : N) (pack : bool) (name : option N) (default : option (list tk)) (inner : option (list tparam))
| TPNonType (t : ty) (name : option N).

(* _parse_template_type_parameter, entered after the class / typename keyword *)
Definition type_param (key : N) (inner : option (list tparam)) (toks : list tk) : dres (tparam * list tk) :=
  let '(pack, r1) := match toks with e :: r => if is T_ELLIPSIS e then (true, r) else (false, toks) | [] => (false, toks) end in
  let '(name, r2) := match r1 with n :: r => if is T_NAME n then (Some (kval n), r) else (None, r1) | [] => (None, r1) end in
  match r2 with
  | e :: r =>
      if is EQ e then
        match consume_value_until kty tmpl_terms r with
        | Ok (v, r3) => DOk (TPType key pack name (Some v) inner, r3)
        | ErrEOF => DErr 2 | ErrUnexpected _ => DErr 1 | ErrInternal => DErr 3
        end
      else DOk (TPType key pack name None inner, r2)
  | [] => DOk (TPType key pack name None inner, r2)
  end.

Definition typename_is_type_param (toks : list tk) : bool :=
  match toks with
  | p :: r =>
      is T_ELLIPSIS p || is EQ p || is COMMA p || is GTk p ||
      (is T_NAME p && match r with q :: _ => is EQ q || is COMMA q || is GTk q | [] => false end)
  | [] => false
  end.

Fixpoint tdecl (f : nat) (toks : list tk) {struct f} : dres (list tparam * list tk) :=
  match f with
  | O => DErr 9
  | S f' =>
      match toks with
      | lt :: r =>
          if is LT lt then
            match r with
            | g :: r1 => if is GTk g then DOk ([], r1) else tloop f' [] r
            | [] => DErr 2
            end
          else DErr 1
      | [] => DErr 2
      end
  end
with tloop (f : nat) (acc : list tparam) (toks : list tk) {struct f} : dres (list tparam * list tk) :=
  match f with
  | O => DErr 9
  | S f' =>
      let cont (p : tparam) (r1 : list tk) :=
        match r1 with
        | s :: r2 =>
            if is COMMA s then tloop f' (p :: acc) r2
            else if is GTk s then DOk (rev (p :: acc), r2)
            else DErr 1
        | [] => DErr 2
        end in
      match toks with
      | t :: r =>
          if is T_template t then
            match tdecl f' r with
            | DOk (inner, r1) =>
                match r1 with
                | k :: r2 =>
                    if is T_class k || is T_typename k then
                      match type_param (kty k) (Some inner) r2 with
                      | DOk (p, r3) => cont p r3
                      | DErr e => DErr e
                      end
                    else DErr 1
                | [] => DErr 2
                end
            | DErr e => DErr e
            end
          else if is T_class t then
            match type_param T_class None r with DOk (p, r3) => cont p r3 | DErr e => DErr e end
          else if is T_typename t then
            if typename_is_type_param r then
              match type_param T_typename None r with DOk (p, r3) => cont p r3 | DErr e => DErr e end
            else DErr 4
          else
            match param f' toks with
            | DOk ((ty0, nm), r1) => cont (TPNonType ty0 nm) r1
            | DErr e => DErr e
            end
      | [] => DErr 2
      end
  end.

Fixpoint tp_toks (p : tparam) : list tk :=
  match p with
  | TPType key pack name default inner =>
      (match inner with
       | Some l => ktok T_template :: ktok LT ::
                     join_comma ((fix go (l : list tparam) : list (list tk) :=
                                    match l with [] => [] | x :: r => tp_toks x :: go r end) l) ++ [ktok GTk]
       | None => []
       end)
      ++ ktok key :: (if pack then [ktok T_ELLIPSIS] else []) ++ name_toks name
      ++ (match default with Some e => ktok EQ :: e | None => [] end)
  | TPNonType t nm => decl_toks t nm
  end.

Definition tlist_toks (l : list tparam) : list tk := ktok LT :: join_comma (map tp_toks l) ++ [ktok GTk].

Definition type_tail (pack : bool) (name : option N) (default : option (list tk)) : list tk :=
  (if pack then [ktok T_ELLIPSIS] else []) ++ name_toks name ++ (match default with Some e => ktok EQ :: e | None => [] end).

Lemma tp_toks_type key pack name default inner :
  tp_toks (TPType key pack name default inner) =
    (match inner with Some l => ktok T_template :: tlist_toks l | None => [] end)
    ++ ktok key :: type_tail pack name default.
Proof.
  cbn [tp_toks]. destruct inner as [l|]; [|reflexivity]. unfold tlist_toks.
  match goal with |- context [join_comma (?g l)] => assert (E : g l = map tp_toks l) end.
  { induction l as [|x r IH]; [reflexivity|]. cbn [map]. now rewrite IH. }
  now rewrite E.
Qed.

Fixpoint tp_ok (p : tparam) : Prop :=
  match p with
  | TPType key pack name default inner =>
      (key = T_class \/ key = T_typename) /\
      (match default with Some e => Expr tk kty tmpl_terms e | None => True end) /\
      (match inner with
       | Some l => (fix all (l : list tparam) : Prop := match l with [] => True | x :: r => tp_ok x /\ all r end) l
       | None => True
       end)
  | TPNonType t nm => wf t /\ kind_of t <> KFn
  end.

Lemma tp_ok_inner key pack name default l :
  tp_ok (TPType key pack name default (Some l)) -> Forall tp_ok l.
Proof.
  cbn [tp_ok]. intros (_ & _ & H). induction l as [|x r IH]; [constructor|]. destruct H as [Hx Hr]. constructor; [exact Hx|now apply IH].
Qed.

Lemma tparam_ind' (Q : tparam -> Prop) :
  (forall key pack name default, Q (TPType key pack name default None)) ->
  (forall key pack name default l, Forall Q l -> Q (TPType key pack name default (Some l))) ->
  (forall t nm, Q (TPNonType t nm)) ->
  forall p, Q p.
Proof.
  intros H1 H2 H3. fix IH 1. intros p. destruct p as [key pack name default inner|t nm]; [destruct inner as [l|]|].
  - apply H2. induction l as [|x r IHl]; constructor; [apply IH|exact IHl].
  - apply H1.
  - apply H3.
Qed.

Definition sep_tok (comma : bool) : tk := ktok (if comma then COMMA else GTk).

Lemma type_param_rt key inner pack name default comma R :
  (match default with Some e => Expr tk kty tmpl_terms e | None => True end) ->
  type_param key inner (type_tail pack name default ++ sep_tok comma :: R)
  = DOk (TPType key pack name default inner, sep_tok comma :: R).
Proof.
  intros Hd. unfold type_param, type_tail. rewrite <- !app_assoc.
  assert (Hstop : stops_at tk kty tmpl_terms (sep_tok comma :: R)) by (destruct comma; reflexivity).
  assert (S1 : is T_ELLIPSIS (sep_tok comma) = false) by (destruct comma; reflexivity).
  assert (S2 : is T_NAME (sep_tok comma) = false) by (destruct comma; reflexivity).
  assert (S3 : is EQ (sep_tok comma) = false) by (destruct comma; reflexivity).
  (* eight written shapes of the tail; in each, type_param's three looks ahead are tests on written tokens or on the
     separator, decided by evaluation and S1..S3, and a default is read whole *)
  destruct pack, name as [n|], default as [e|]; cbn [app name_toks];
    repeat (progress (isc; cbn iota beta; cbn [kval]; rewrite ?S1, ?S2, ?S3));
    try rewrite (value_is_whole tk kty tmpl_terms e (sep_tok comma :: R) Hd Hstop); reflexivity.
Qed.

Lemma typename_lookahead pack name default comma R :
  typename_is_type_param (type_tail pack name default ++ sep_tok comma :: R) = true.
Proof.
  unfold type_tail. rewrite <- !app_assoc.
  destruct pack; [reflexivity|]. destruct name as [n|].
  - cbn [app name_toks typename_is_type_param]. isc.
    destruct default as [e|]; [reflexivity|]. destruct comma; reflexivity.
  - cbn [app name_toks]. destruct default as [e|]; [reflexivity|]. destruct comma; reflexivity.
Qed.

(* the local [cont] of tloop *)
Definition tcont (f : nat) (acc : list tparam) (p : tparam) (r1 : list tk) : dres (list tparam * list tk) :=
  match r1 with
  | s :: r2 =>
      if is COMMA s then tloop f (p :: acc) r2
      else if is GTk s then DOk (rev (p :: acc), r2)
      else DErr 1
  | [] => DErr 2
  end.

Lemma tloop_type f acc key pack name default comma R :
  key = T_class \/ key = T_typename ->
  (match default with Some e => Expr tk kty tmpl_terms e | None => True end) ->
  tloop (S f) acc (ktok key :: type_tail pack name default ++ sep_tok comma :: R) =
    tcont f acc (TPType key pack name default None) (sep_tok comma :: R).
Proof.
  intros Hkey Hd. cbn [tloop]. destruct Hkey as [-> | ->]; isc.
  - now rewrite type_param_rt.
  - now rewrite typename_lookahead, type_param_rt.
Qed.

Lemma tloop_template f acc l key pack name default comma R :
  key = T_class \/ key = T_typename ->
  (match default with Some e => Expr tk kty tmpl_terms e | None => True end) ->
  tdecl f (tlist_toks l ++ ktok key :: type_tail pack name default ++ sep_tok comma :: R) =
    DOk (l, ktok key :: type_tail pack name default ++ sep_tok comma :: R) ->
  tloop (S f) acc (ktok T_template :: tlist_toks l ++ ktok key :: type_tail pack name default ++ sep_tok comma :: R) =
    tcont f acc (TPType key pack name default (Some l)) (sep_tok comma :: R).
Proof.
  intros Hkey Hd E. cbn [tloop]. isc. rewrite E.
  assert (Hk : is T_class (ktok key) || is T_typename (ktok key) = true) by (destruct Hkey as [-> | ->]; reflexivity).
  rewrite Hk. cbn [kty ktok]. now rewrite type_param_rt.
Qed.

Lemma tloop_nontype f acc t nm X :
  param f (decl_toks t nm ++ X) = DOk ((t, nm), X) ->
  tloop (S f) acc (decl_toks t nm ++ X) = tcont f acc (TPNonType t nm) X.
Proof.
  intros E.
  destruct (decl_first (fun t => negb (memN (kty t) [T_template; T_class; T_typename])) t nm) as (t0 & r0 & Et & Hh);
    try reflexivity.
  apply negb_true_iff in Hh.
  assert (Eh : decl_toks t nm ++ X = t0 :: (r0 ++ X)) by now rewrite Et.
  cbn [tloop]. rewrite Eh, !(memN_is _ _ _ Hh), <- Eh by reflexivity. now rewrite E.
Qed.

(* the step property of one parameter, in continuation form: whatever [v] the loop returns from behind p, with p
   taken, it returns from in front of p *)
Definition Pstep (p : tparam) : Prop :=
  forall comma acc R v, ev (fun f => tcont f acc p (sep_tok comma :: R)) v ->
    ev (fun f => tloop f acc (tp_toks p ++ sep_tok comma :: R)) v.

Lemma tloop_list : forall l, l <> [] -> Forall Pstep l -> forall acc R,
  ev (fun f => tloop f acc (join_comma (map tp_toks l) ++ ktok GTk :: R)) (DOk (rev acc ++ l, R)).
Proof.
  induction l as [|p q IH]; intros Hne Hall acc R; [contradiction|].
  inversion Hall as [|? ? Hp Hq]; subst.
  destruct q as [|p2 q'].
  - apply (Hp false acc R). now apply ev_always.
  - cbn [map]. rewrite join_cons2, <- app_assoc. cbn [app]. apply (Hp true).
    specialize (IH ltac:(discriminate) Hq (p :: acc) R). cbn [rev] in IH. rewrite <- app_assoc in IH. exact IH.
Qed.

Lemma tp_head p : tp_ok p -> exists t r, tp_toks p = t :: r /\ is GTk t = false.
Proof.
  destruct p as [key pack name default inner|t nm]; intros Hok.
  - rewrite tp_toks_type. destruct inner as [l|].
    + eexists; eexists; split; reflexivity.
    + destruct Hok as ([-> | ->] & _); eexists; eexists; split; reflexivity.
  - destruct (decl_first (fun t => negb (is GTk t)) t nm) as (t0 & r0 & E & H); try reflexivity.
    exists t0, r0. apply negb_true_iff in H. now split.
Qed.

Lemma tdecl_list l R : Forall tp_ok l -> Forall Pstep l ->
  ev (fun f => tdecl f (tlist_toks l ++ R)) (DOk (l, R)).
Proof.
  intros Hok Hst. unfold tlist_toks. cbn [app]. rewrite <- app_assoc. cbn [app].
  destruct l as [|p q].
  - apply ev_next, ev_always. reflexivity.
  - apply ev_next, (ev_with (tloop_list (p :: q) ltac:(discriminate) Hst [] R)), ev_always. intros f E.
    inversion Hok as [|? ? Hp _]; subst.
    destruct (tp_head p Hp) as (t & r & Et & Hg).
    cbn [tdecl]. isc. cbn [map] in *.
    rewrite join_comma_app, Et in *. cbn [app]. now rewrite Hg.
Qed.

Lemma step_all : forall p, tp_ok p -> Pstep p.
Proof.
  induction p as [key pack name default|key pack name default l IHl|t nm] using tparam_ind'; intros Hok comma acc R v Hv.
  - destruct Hok as (Hkey & Hd & _). rewrite tp_toks_type. cbn [app].
    apply ev_next, (ev_with Hv), ev_always. intros f <-. now apply tloop_type.
  - pose proof (tp_ok_inner _ _ _ _ _ Hok) as Hin.
    assert (Hst : Forall Pstep l).
    { rewrite Forall_forall in *. intros x Hx. apply IHl; [exact Hx|now apply Hin]. }
    destruct Hok as (Hkey & Hd & _). rewrite tp_toks_type. cbn [app]. rewrite <- app_assoc. cbn [app].
    apply ev_next, (ev_with (tdecl_list l (ktok key :: type_tail pack name default ++ sep_tok comma :: R) Hin Hst)), (ev_with Hv), ev_always. intros f <- E. now apply tloop_template.
  - destruct Hok as [Hwf Hk].
    assert (Hf : follow_ok (sep_tok comma :: R) = true) by (destruct comma; reflexivity).
    apply ev_next, (ev_with (param_roundtrip t nm (sep_tok comma :: R) Hwf Hk Hf)), (ev_with Hv), ev_always. intros f <- E.
    now apply tloop_nontype.
Qed.

(* `< p1, ..., pn >` *)
Theorem template_params_roundtrip l R :
  Forall tp_ok l -> ev (fun f => tdecl f (tlist_toks l ++ R)) (DOk (l, R)).
Proof.
  intros Hok. apply tdecl_list; [exact Hok|]. exact (Forall_impl Pstep step_all Hok).
Qed.
