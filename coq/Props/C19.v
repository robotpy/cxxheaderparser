(* C19 -- Preprocessor integration yields the main file's declarations only.
   Model: PP/Filters.v (hand-written mirror of the three line-marker filters;
   the translator compares their bodies with the pinned text on every run and
   records the outcome in Gen/FiltersPin.v, which no statement below refers to);
   spec: PP/Markers.v. *)
From Coq Require Import NArith List.
Import ListNotations.
From CXV Require Import Gen.FiltersPin Lex.PlyLoop PP.Filters PP.Markers.
Open Scope N_scope.

(* gcc: for EVERY marker stream (any include graph, any depth, any file names
   without a double quote - suffixes and prefixes of one another, directories,
   blanks included) whose content lines do not start with "# ", the filter
   keeps exactly the content written while the current file is the main file
   and the markers that switch back to it *)
Theorem gcc_filter_keeps_main :
  forall (main : list N) (s : list item) (keep : bool),
    Forall gcc_wf s ->
    filter_lines (gcc_keep main) keep (map render s)
    = map render (select (fun f => list_eqb f main) keep s).
Proof. exact (fun main => filter_lines_select _ _ _ (gcc_keep_marker main) (gcc_keep_content main)). Qed.

(* the name written in a marker and the name compared are both escaped
   (backslashes doubled); escaping is injective, so equal escaped names mean
   the same file *)
Theorem escaped_names_identify_files :
  forall a b : list N, list_eqb (esc a) (esc b) = list_eqb a b.
Proof. exact (list_eqb_inj esc esc_inj). Qed.

(* pcpp ('#line N "file"' markers, ends-with test) *)
Theorem pcpp_filter_keeps_main :
  forall (main : list N), noq main -> forall (s : list item) (keep : bool),
    Forall hline_wf s ->
    filter_lines (pcpp_keep main) keep (map render s)
    = map render (select (fun f => list_eqb f main) keep s).
Proof. exact (fun main Hm => filter_lines_select _ _ _ (pcpp_keep_marker main Hm) (pcpp_keep_content main)). Qed.

(* msvc (main file = the file of the very first marker) *)
Theorem msvc_filter_keeps_main :
  forall (pre0 main : list N), noq pre0 -> noq main -> forall (s : list item),
    Forall hline_wf s ->
    msvc_filter (render (Marker pre0 main [10]) :: map render s)
    = map render (select (fun f => list_eqb f main) true s).
Proof. exact msvc_filter_keeps_main_lemma. Qed.

Print Assumptions gcc_filter_keeps_main.
Print Assumptions escaped_names_identify_files.
Print Assumptions pcpp_filter_keeps_main.
Print Assumptions msvc_filter_keeps_main.

(* non-vacuity and the F11 shape: main a.h, included ba.h *)
Example c19_nonvacuous :
  gcc_filter [97; 46; 104]
    [[35;32;49;32;34;97;46;104;34;10]; [105;110;116;32;109;59;10];
     [35;32;49;32;34;98;97;46;104;34;32;49;10]; [105;110;116;32;105;59;10];
     [35;32;50;32;34;97;46;104;34;32;50;10]; [105;110;116;32;110;59;10]]
  = [[35;32;49;32;34;97;46;104;34;10]; [105;110;116;32;109;59;10];
     [35;32;50;32;34;97;46;104;34;32;50;10]; [105;110;116;32;110;59;10]].
Proof. vm_compute. reflexivity. Qed.
