(* C14 -- Unparsed values carry exactly the source tokens of their expression. *)
From Coq Require Import NArith List.
Import ListNotations.
From CXV Require Import Gen.TokTy Gen.ParserTables Parse.Balanced Parse.BalancedThms Parse.Positions.
From CXV Require Import Parse.Declarator Parse.DeclSpec Parse.EnumList Parse.Requires.
Open Scope N_scope.

Section C14.
  Variable T : Type.
  Variable ty : T -> N.

  (* nothing dropped, duplicated, reordered, nothing taken from the surrounding
     declaration: the value and the remaining stream split the input *)
  Theorem value_is_contiguous :
    forall (terms : list N) (toks v r : list T),
      consume_value_until ty terms toks = Ok (v, r) -> toks = v ++ r.
  Proof. exact (BalancedThms.value_is_contiguous T ty). Qed.

  Theorem value_stops_at_terminator :
    forall (fuel : nat) (terms : list N) (acc toks v r : list T),
      value_until ty fuel terms acc toks = Ok (v, r) ->
      r = [] \/ exists t r', r = t :: r' /\ memN (ty t) terms = true.
  Proof.
    intros fuel terms acc toks v r H. apply (BalancedThms.value_until_split T ty) in H as [_ H].
    destruct r as [|t r']; [now left|right; now exists t, r'].
  Qed.

  (* for every expression of the token-level grammar Expr (plain tokens,
     strict groups over strict-nested soups, angle groups closed by '>'),
     followed by a terminator, the value is the whole expression *)
  Theorem value_is_whole :
    forall (terms : list N) (e rest : list T),
      Expr T ty terms e -> stops_at T ty terms rest ->
      consume_value_until ty terms (e ++ rest) = Ok (e, rest).
  Proof. exact (BalancedThms.value_is_whole T ty). Qed.

  (* a balanced group used as a value (brace initialisers, and with [1:-1]
     throw/noexcept/decltype/array sizes) is exactly the group *)
  Theorem group_value_exact :
    forall (a b : T) (c : N) (soup rest : list T),
      assocN (ty a) balanced_token_map = Some c -> c <> GT -> ty b = c ->
      SN T ty soup ->
      consume_balanced ty [a] (soup ++ b :: rest) = Ok (a :: soup ++ [b], rest).
  Proof. exact (BalancedThms.consume_balanced_exact T ty). Qed.
End C14.

(* slice policy over the value positions regenerated from parser.py's AST *)
Theorem positions_policy :
  forall label tclass kind terms, In (label, tclass, kind, terms) value_positions ->
    (tclass <> 0 -> kind = K_INNER) /\ (tclass = 0 -> kind <> K_INNER).
Proof. exact positions_policy_lemma. Qed.

(* requires-clauses (_parse_requires, a bespoke loop): a clause of primaries -- parenthesized
   expressions and possibly specialized names, decltype(...) pieces -- joined by one or
   two operator tokens, of any length, ended by any token that is not an operator or by
   a single '=' (`= delete`): the value is exactly the source tokens of the clause, in
   order, and the ending token with everything behind it stays in the stream.  For names
   written with '::' between their pieces the value lacks those '::' tokens (known finding
   F29; requires_clause_value_partial states what is reported). *)
Theorem requires_clause_exact_for_unqualified_names : forall pr ls x X f g,
  prim_ok pr -> links_ok pr ls -> follows (last_prim pr ls) x -> stop_ok x X ->
  unqualified pr -> Forall (fun l : link => unqualified (snd l)) ls ->
  (S (length ls) <= f)%nat -> (max_pieces pr ls <= g)%nat ->
  requires_clause f g (clause_toks pr ls ++ x :: X) = DOk (clause_toks pr ls, x :: X).
Proof. exact requires_clause_exact. Qed.

Theorem requires_clause_value_partial : forall pr ls x X f g,
  prim_ok pr -> links_ok pr ls -> follows (last_prim pr ls) x -> stop_ok x X ->
  (S (length ls) <= f)%nat -> (max_pieces pr ls <= g)%nat ->
  requires_clause f g (clause_toks pr ls ++ x :: X) = DOk (clause_val pr ls, x :: X).
Proof. exact requires_clause_roundtrip. Qed.

Theorem requires_expression_exact : forall ps body X f g,
  SNk ps -> SNk body ->
  requires_clause f g (ktok T_requires :: ktok LP :: ps ++ ktok RP :: ktok LBRACE :: body ++ ktok RBRACE :: X)
  = DOk (ktok T_requires :: (ktok LP :: ps ++ [ktok RP]) ++ (ktok LBRACE :: body ++ [ktok RBRACE]), X).
Proof. exact requires_requires_roundtrip. Qed.

(* F29 in the model: `std :: integral < T > void` reports std integral < T > *)
Example requires_qualified_name_refuted :
  requires_clause 3 3 [mkTk T_NAME 1; ktok T_DBL_COLON; mkTk T_NAME 2; ktok T_LIT_60; mkTk T_NAME 3; ktok T_LIT_62; ktok T_void]
  = DOk ([mkTk T_NAME 1; mkTk T_NAME 2; ktok T_LIT_60; mkTk T_NAME 3; ktok T_LIT_62], [ktok T_void]).
Proof. vm_compute. reflexivity. Qed.

(* non-vacuity: `( A < T > ) && B < T > || C == D = delete` *)
Example requires_clause_run :
  requires_clause 9 9 [ktok LP; mkTk T_NAME 1; ktok T_LIT_60; mkTk T_NAME 3; ktok T_LIT_62; ktok RP; ktok T_DBL_AMP;
                       mkTk T_NAME 2; ktok T_LIT_60; mkTk T_NAME 3; ktok T_LIT_62; ktok T_DBL_PIPE; mkTk T_NAME 4; ktok EQ; ktok EQ;
                       mkTk T_NAME 5; ktok EQ; ktok T_delete]
  = DOk ([ktok LP; mkTk T_NAME 1; ktok T_LIT_60; mkTk T_NAME 3; ktok T_LIT_62; ktok RP; ktok T_DBL_AMP;
          mkTk T_NAME 2; ktok T_LIT_60; mkTk T_NAME 3; ktok T_LIT_62; ktok T_DBL_PIPE; mkTk T_NAME 4; ktok EQ; ktok EQ; mkTk T_NAME 5],
         [ktok EQ; ktok T_delete]).
Proof. vm_compute. reflexivity. Qed.

Print Assumptions requires_clause_exact_for_unqualified_names.
Print Assumptions requires_clause_value_partial.
Print Assumptions requires_expression_exact.
Print Assumptions value_is_contiguous.
Print Assumptions value_stops_at_terminator.
Print Assumptions value_is_whole.
Print Assumptions group_value_exact.
Print Assumptions positions_policy.

(* the full statement is false for a depth-0 '<' that is a comparison
   (F6, known finding): the model shows the same overrun as the code *)
Example lt_operator_refuted :
  consume_value_until (fun x : N => x) [T_LIT_44; T_LIT_59]
    [T_NAME; T_LIT_60; T_NAME; T_LIT_59; T_int; T_NAME; T_LIT_61; T_NAME; T_LIT_62; T_NAME; T_LIT_59]
  = Ok ([T_NAME; T_LIT_60; T_NAME; T_LIT_59; T_int; T_NAME; T_LIT_61; T_NAME; T_LIT_62; T_NAME], [T_LIT_59]).
Proof. vm_compute. reflexivity. Qed.

(* non-vacuity of value_is_whole: "f ( a , b ) + A < B , C > :: v" before ';' *)
Example c14_nonvacuous :
  consume_value_until (fun x : N => x) [T_LIT_44; T_LIT_59]
    [T_NAME; T_LIT_40; T_NAME; T_LIT_44; T_NAME; T_LIT_41; T_LIT_43; T_NAME; T_LIT_60; T_NAME; T_LIT_44; T_NAME; T_LIT_62; T_DBL_COLON; T_NAME; T_LIT_59; T_int]
  = Ok ([T_NAME; T_LIT_40; T_NAME; T_LIT_44; T_NAME; T_LIT_41; T_LIT_43; T_NAME; T_LIT_60; T_NAME; T_LIT_44; T_NAME; T_LIT_62; T_DBL_COLON; T_NAME], [T_LIT_59; T_int]).
Proof. vm_compute. reflexivity. Qed.
