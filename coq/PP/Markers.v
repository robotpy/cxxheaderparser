(* Specification of line-marker streams and the filter theorems (C19). *)
From Coq Require Import NArith List Lia PeanoNat.
Import ListNotations.
From CXV Require Import Lex.PlyLoop Lex.PlyLoopFacts PP.Filters.
Open Scope N_scope.

(* what a preprocessor emits: markers naming the file the following lines
   come from, and content lines *)
Inductive item :=
| Marker (pre : list N) (file : list N) (post : list N)
| Content (line : list N).

Definition noq (l : list N) : Prop := Forall (fun c => c <> Q) l.

Definition render (it : item) : list N :=
  match it with
  | Marker pre f post => pre ++ Q :: f ++ Q :: post
  | Content l => l
  end.

(* the lines that belong to [main]: content while the current file is main,
   and the markers that switch to main (they re-base the lexer's line count) *)
Fixpoint select (is_main : list N -> bool) (cur : bool) (s : list item) : list item :=
  match s with
  | [] => []
  | Marker pre f post :: r =>
      let k := is_main f in (if k then [Marker pre f post] else []) ++ select is_main k r
  | Content l :: r => (if cur then [Content l] else []) ++ select is_main cur r
  end.

Lemma find_q_noq pre r : noq pre -> find_q (pre ++ Q :: r) = Some (length pre).
Proof.
  induction 1 as [|c l Hc _ IH]; cbn [app find_q length].
  - now rewrite N.eqb_refl.
  - destruct (N.eqb_spec c Q); [contradiction|]. now rewrite IH.
Qed.

Lemma rfind_q_noq_none l : noq l -> rfind_q l = None.
Proof.
  induction 1 as [|c l Hc _ IH]; cbn [rfind_q]; [reflexivity|].
  rewrite IH. destruct (N.eqb_spec c Q); [contradiction|reflexivity].
Qed.

Lemma rfind_q_last : forall pre post, noq post -> rfind_q (pre ++ Q :: post) = Some (length pre).
Proof.
  induction pre as [|c l IH]; intros post Hp; cbn [app rfind_q length].
  - rewrite (rfind_q_noq_none post Hp). now rewrite N.eqb_refl.
  - now rewrite (IH post Hp).
Qed.

Lemma slice_mid (a m b : list N) x :
  slice (S (length a)) (length (a ++ x :: m)) (a ++ x :: m ++ b) = m.
Proof.
  unfold slice. rewrite app_length. cbn [length].
  replace (length a + S (length m) - S (length a))%nat with (length m) by lia.
  rewrite skipn_app, skipn_all2, Nat.sub_succ_l, Nat.sub_diag by lia. cbn [app skipn].
  rewrite firstn_app, firstn_all, Nat.sub_diag. cbn [firstn]. apply app_nil_r.
Qed.

Lemma list_eqb_inj (g : list N -> list N) : (forall a b, g a = g b -> a = b) ->
  forall a b, list_eqb (g a) (g b) = list_eqb a b.
Proof.
  intros Hg a b. destruct (list_eqb_spec (g a) (g b)) as [E|E], (list_eqb_spec a b) as [E'|E']; try reflexivity.
  - now apply Hg in E.
  - now subst.
Qed.

(* gcc writes the escaped name in its markers and the filter compares with the
   escaped main name; escaping is injective *)
Lemma esc_inj : forall a b, esc a = esc b -> a = b.
Proof.
  induction a as [|x a IH]; destruct b as [|y b]; cbn [esc]; intros H.
  - reflexivity.
  - destruct (y =? 92); discriminate.
  - destruct (x =? 92); discriminate.
  - destruct (N.eqb_spec x 92) as [->|Hx]; destruct (N.eqb_spec y 92) as [->|Hy].
    + inversion H. f_equal. now apply IH.
    + inversion H; subst. contradiction.
    + inversion H; subst. contradiction.
    + inversion H; subst. f_equal. now apply IH.
Qed.

(* The three filters are one fold: a step that answers [is_main f] on a
   marker for f and leaves [keep] alone on content. *)
Section Filter.
  Variables (step : bool -> list N -> bool) (is_main : list N -> bool) (ok : item -> Prop).
  Hypothesis step_marker : forall keep pre f post,
    ok (Marker pre f post) -> step keep (render (Marker pre f post)) = is_main f.
  Hypothesis step_content : forall keep l, ok (Content l) -> step keep l = keep.

  Lemma filter_lines_select : forall s keep, Forall ok s ->
    filter_lines step keep (map render s) = map render (select is_main keep s).
  Proof.
    intros s keep H. revert keep.
    induction H as [|[pre f post|l] r Hit _ IH]; intros keep; [reflexivity|..]; cbn [map filter_lines select].
    - rewrite (step_marker keep pre f post Hit), IH. now destruct (is_main f).
    - cbn [render]. rewrite (step_content keep l Hit), IH. now destruct keep.
  Qed.
End Filter.

Definition gcc_wf (it : item) : Prop :=
  match it with
  | Marker pre f post => starts_with [35; 32] pre = true /\ noq pre /\ noq f /\ noq post
  | Content l => starts_with [35; 32] l = false
  end.

Lemma starts_with_app p a b : starts_with p a = true -> starts_with p (a ++ b) = true.
Proof.
  revert a. induction p as [|x p IH]; intros a H; [reflexivity|].
  destruct a as [|y a]; cbn in *; [discriminate|].
  apply andb_prop in H as [H1 H2]. rewrite H1. cbn. now apply IH.
Qed.

Lemma gcc_keep_marker main keep pre f post :
  gcc_wf (Marker pre f post) ->
  gcc_keep main keep (render (Marker pre f post)) = list_eqb f main.
Proof.
  intros (Hs & Hp & _ & Ho). unfold gcc_keep. cbn [render].
  rewrite (starts_with_app _ _ _ Hs), (find_q_noq _ _ Hp).
  change (pre ++ Q :: f ++ Q :: post) with (pre ++ (Q :: f) ++ Q :: post) at 1.
  rewrite app_assoc, (rfind_q_last _ _ Ho). now rewrite slice_mid.
Qed.

Lemma gcc_keep_content main keep l : gcc_wf (Content l) -> gcc_keep main keep l = keep.
Proof. intros H. cbn [gcc_wf] in H. unfold gcc_keep. now rewrite H. Qed.

Lemma starts_with_rev_noq : forall a b c, noq a -> noq b ->
  starts_with (a ++ [Q]) (b ++ Q :: c) = list_eqb b a.
Proof.
  induction a as [|x a IH]; intros b c Ha Hb.
  - destruct b as [|y b]; cbn [app starts_with list_eqb].
    + now rewrite N.eqb_refl.
    + inversion Hb as [|? ? Hy _]; subst. destruct (N.eqb_spec Q y); [congruence|reflexivity].
  - inversion Ha as [|? ? Hx Ha']; subst.
    destruct b as [|y b]; cbn [app starts_with list_eqb].
    + destruct (N.eqb_spec x Q); [contradiction|reflexivity].
    + inversion Hb as [|? ? Hy Hb']; subst. now rewrite (IH b c Ha' Hb'), N.eqb_sym.
Qed.

Lemma ends_with_marker main pre f :
  noq main -> noq f ->
  ends_with (Q :: main ++ [Q; 10]) (render (Marker pre f [10])) = list_eqb f main.
Proof.
  intros Hm Hf. unfold ends_with. cbn [render].
  (* both texts reversed: newline and closing quote agree, then rev main ++ [Q] against rev f ++ Q :: rev pre *)
  change (Q :: main ++ [Q; 10]) with ((Q :: main) ++ [Q; 10]).
  change (pre ++ Q :: f ++ [Q; 10]) with (pre ++ (Q :: f) ++ [Q; 10]).
  rewrite (app_assoc pre), !rev_app_distr. cbn [rev app]. rewrite <- app_assoc.
  cbn [app starts_with]. rewrite !N.eqb_refl. cbn [andb].
  rewrite (starts_with_rev_noq (rev main) (rev f) (rev pre) (Forall_rev Hm) (Forall_rev Hf)).
  apply (list_eqb_inj (@rev N)). intros a b E. now rewrite <- (rev_involutive a), E, rev_involutive.
Qed.

Definition hline_wf (it : item) : Prop :=
  match it with
  | Marker pre f post => starts_with str_hline pre = true /\ noq f /\ post = [10]
  | Content l => starts_with str_hline l = false
  end.

Lemma pcpp_keep_marker main : noq main -> forall keep pre f post,
  hline_wf (Marker pre f post) ->
  pcpp_keep main keep (render (Marker pre f post)) = list_eqb f main.
Proof.
  intros Hm keep pre f post (Hs & Hf & ->). unfold pcpp_keep.
  rewrite (ends_with_marker main pre f Hm Hf).
  cbn [render]. now rewrite (starts_with_app _ _ _ Hs).
Qed.

Lemma pcpp_keep_content main keep l : hline_wf (Content l) -> pcpp_keep main keep l = keep.
Proof. intros H. cbn [hline_wf] in H. unfold pcpp_keep. now rewrite H. Qed.

(* msvc: the suffix is taken from the first line, the #line marker of main;
   with that suffix [msvc_keep] is [pcpp_keep main] *)
Theorem msvc_filter_keeps_main_lemma pre0 main : noq pre0 -> noq main -> forall (s : list item),
  Forall hline_wf s ->
  msvc_filter (render (Marker pre0 main [10]) :: map render s)
  = map render (select (fun f => list_eqb f main) true s).
Proof.
  intros Hp Hm s Hwf. unfold msvc_filter. cbn [render].
  rewrite (find_q_noq pre0 (main ++ [Q; 10]) Hp), skipn_app, skipn_all, Nat.sub_diag.
  exact (filter_lines_select (pcpp_keep main) _ _ (pcpp_keep_marker main Hm) (pcpp_keep_content main) s true Hwf).
Qed.
