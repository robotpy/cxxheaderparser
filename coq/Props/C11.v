(* C11 -- Documentation comments attach to the declaration they adjoin, and only to it. *)
From Coq Require Import ZArith List Sorting.Permutation.
Import ListNotations.
From CXV Require Import Gen.TokTy Lex.PlyLoop Stream.TokBuf Stream.TokBufThms.
From CXV Require Import Gen.TopLoop Parse.Balanced Parse.TopLoop.
Open Scope N_scope.

(* get_doxygen: the answer is built from the comment tokens collected by [scan]
   over the layout run in front of the first significant token, filtered to
   the documentation styles; that run is consumed and nothing else.
   scan: a comment token is collected; a NEWLINE token that is a blank line
   forgets everything; a single newline right after a comment that did not
   include its own line end only ends that line *)
Theorem get_doxygen_spec :
  forall (st : ts) (o : option (list tok)) (st' : ts),
    get_doxygen st = SOk o st' ->
    o = (match fst (scan ([], false) (lay_prefix (logical st))) with [] => None | cs => extract (rev cs) end) /\
    logical st' = lay_rest (logical st).
Proof. exact get_doxygen_spec_lemma. Qed.

(* what scan returns: the comments, in order, of everything after some NEWLINE
   token of the layout run (or of the whole run): never a comment in front of a
   clearing NEWLINE, never anything else *)
Theorem scan_is_block_after_a_newline :
  forall (l : list tok) (s : sstate),
    exists l1 l2, l = l1 ++ l2 /\
      ((l1 = [] /\ fst (scan s l) = rev (filter is_comment l2) ++ fst s) \/
       ((exists l0 nl, l1 = l0 ++ [nl] /\ tty nl = T_NEWLINE) /\
        fst (scan s l) = rev (filter is_comment l2))).
Proof. exact scan_is_suffix_block. Qed.

(* which NEWLINE tokens clear: all except one single newline directly after a
   comment token that did not swallow its line end *)
Theorem blank_line_rule :
  forall (s : sstate) (t : tok), tty t = T_NEWLINE ->
    scan_step s t = ((if negb (snd s && list_eqb (ttext t) [10]) then [] else fst s), false).
Proof. exact scan_step_nl. Qed.

(* get_doxygen_after: only comment tokens of the current buffered line are
   taken, only NEWLINE tokens of it are dropped, every other buffered token
   stays (the buffer is described up to its order), later lines are untouched *)
Theorem get_doxygen_after_spec :
  forall (st : ts) (o : option (list tok)) (st' : ts),
    get_doxygen_after st = (o, st') ->
    raw st' = raw st /\ abs st' = abs st /\
    exists taken dropped,
      Permutation (buf st) (buf st' ++ taken ++ dropped) /\
      o = (match taken with [] => None | _ => extract taken end) /\
      Forall (fun t => is_comment t = true) taken /\
      Forall (fun t => tty t = T_NEWLINE) dropped.
Proof. exact get_doxygen_after_spec_lemma. Qed.

(* doc_linearity: a comment token that contributed to an answer is gone from
   the stream, so it can never be attributed to a second declaration *)
Theorem doc_linearity_after :
  forall (st : ts) (o : option (list tok)) (st' : ts) (off : N),
    NoDup (map toff (logical st)) ->
    get_doxygen_after st = (o, st') ->
    forall cs, o = Some cs -> In off (map toff cs) -> ~ In off (map toff (logical st')).
Proof. exact doxygen_after_linear. Qed.

Theorem doc_linearity :
  forall (st : ts) (o : option (list tok)) (st' : ts) (off : N),
    NoDup (map toff (logical st)) ->
    get_doxygen st = SOk o st' ->
    In off (map toff (lay_prefix (logical st))) -> ~ In off (map toff (logical st')).
Proof. exact doxygen_linear. Qed.

(* non-documentation comments contribute no text: extract keeps doc styles only *)
Theorem extract_doc_only :
  forall cs l, extract cs = Some l -> Forall (fun t => is_doc t = true) l.
Proof. exact extract_doc_only_lemma. Qed.

(* a documentation comment is never carried across the end of the enclosing
   block: when the first significant token left on the buffered line is the
   closing brace, nothing is taken and the stream is unchanged *)
Theorem doc_not_carried_across_block_end :
  forall (st : ts) (pre : list tok) (t : tok) (post : list tok),
    buf st = (pre ++ t :: post)%list ->
    Forall (fun x => tty x = T_WHITESPACE) pre ->
    tty t = T_LIT_125 ->
    get_doxygen_after st = (None, st).
Proof. exact doc_not_carried_across_block_end_lemma. Qed.

(* ... nor past the statement's own semicolon into a later statement on the
   same line: when a significant token follows the semicolon, nothing is taken *)
Theorem doc_not_carried_past_next_statement :
  forall (st : ts) (pre : list tok) (semi : tok) (mid : list tok) (t : tok) (post : list tok),
    buf st = (pre ++ semi :: mid ++ t :: post)%list ->
    Forall (fun x => tty x = T_WHITESPACE) pre ->
    Forall (fun x => tty x = T_WHITESPACE) mid ->
    tty semi = T_LIT_59 ->
    plain_sig t = true ->
    get_doxygen_after st = (None, st).
Proof. exact doc_not_carried_past_next_statement_lemma. Qed.

(* The hand-over of the documentation text in the dispatch loop of
   CxxParser.parse (the loop is the reference loop, its tables regenerated):
   the first statement, and every statement behind a declaration, an access
   specifier, a block boundary or anything else that is not a kept decoration,
   is handed exactly the block in front of it; after such a statement nothing
   is pending, so no text is carried across it; behind a decoration
   (attribute, alignas, __declspec) the text handed to the decoration is passed
   on, and only when there was none does the next block count. *)
Theorem doc_text_of_first_statement : forall (D : Type) (x : stmt D), handed_to D None [] x = s_blk D x.
Proof. reflexivity. Qed.

Theorem doc_text_reset_after_every_declaration : forall (D : Type) p l (s : stmt D),
  kept D s = false -> pend D p (l ++ [s]) = None.
Proof. intros D p l s H. now rewrite pend_snoc, H. Qed.

Theorem doc_text_is_the_adjoining_block : forall (D : Type) p l (s x : stmt D),
  kept D s = false -> handed_to D p (l ++ [s]) x = s_blk D x.
Proof. intros D p l s x H. now rewrite handed_after, H. Qed.

Theorem doc_text_passes_through_decorations : forall (D : Type) p l (s x : stmt D),
  kept D s = true ->
  handed_to D p (l ++ [s]) x = match handed_to D p l s with Some d => Some d | None => s_blk D x end.
Proof. intros D p l s x H. now rewrite handed_after, H. Qed.

Theorem one_call_per_statement_in_order : forall (D : Type) p (l : list (stmt D)),
  map fst (run D p l) = map (fun s => dispatch (s_ty D s)) l.
Proof. exact calls_in_order. Qed.

(* which statements reset: everything handed to _parse_declarations, and the
   access specifiers, braces, ';' and declaration keywords of the table; the
   kept token types are handled by the three decoration consumers only *)
Theorem declarations_reset_doc_text : forall (D : Type) (s : stmt D),
  assocN (s_ty D s) tu_table = None -> kept D s = false.
Proof. exact declaration_resets. Qed.

Theorem boundaries_reset_doc_text : forall (D : Type) (s : stmt D),
  In (s_ty D s) boundary_types -> kept D s = false.
Proof. exact boundary_resets. Qed.

Theorem kept_types_are_decorations : keep_are_decorations = true.
Proof. exact keep_are_decorations_true. Qed.

Theorem dispatch_loop_is_the_modelled_one : toploop_is_reference = true.
Proof. exact toploop_reference. Qed.

Print Assumptions get_doxygen_spec.
Print Assumptions doc_not_carried_across_block_end.
Print Assumptions doc_not_carried_past_next_statement.
Print Assumptions scan_is_block_after_a_newline.
Print Assumptions blank_line_rule.
Print Assumptions get_doxygen_after_spec.
Print Assumptions doc_linearity_after.
Print Assumptions doc_linearity.
Print Assumptions extract_doc_only.

(* non-vacuity: "/// a NL NL /// b NL int" : only the block after the blank line *)
Example c11_nonvacuous :
  match get_doxygen (stream_of [102] [47;47;47;32;97;10; 10; 47;47;47;32;98;10; 105;110;116]) with
  | SOk (Some [t]) _ => ttext t = [47;47;47;32;98;10]
  | _ => False
  end.
Proof. vm_compute. reflexivity. Qed.
Print Assumptions doc_text_of_first_statement.
Print Assumptions doc_text_reset_after_every_declaration.
Print Assumptions doc_text_is_the_adjoining_block.
Print Assumptions doc_text_passes_through_decorations.
Print Assumptions one_call_per_statement_in_order.
Print Assumptions declarations_reset_doc_text.
Print Assumptions boundaries_reset_doc_text.
Print Assumptions kept_types_are_decorations.
Print Assumptions dispatch_loop_is_the_modelled_one.
