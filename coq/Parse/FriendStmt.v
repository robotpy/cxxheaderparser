(* Hand-written mirror of a friend declaration inside a class body, behind the
   `friend` keyword (_parse_friend_decl -> _parse_declarations(is_friend) ->
   _parse_decl / _parse_function): specifiers and type (_parse_type, validate in a
   class), the pointer / reference part, then either NAME '(' -- a friend
   FUNCTION: parameters and _parse_method_end, delivered as a friend, never a
   constructor of the enclosing class (an unqualified name is compared with the
   befriended class, which it does not name) -- or directly ';': a friend TYPE
   named by the type just read.  `friend class X;` is decided by
   _maybe_parse_class_enum_decl (Parse/ClassEnum.v) and is outside this model, as
   are qualified and operator names.
   Tied to the code by the differential run of harness/props/c03.py. *)
From Coq Require Import NArith List Bool.
Import ListNotations.
From CXV Require Import Gen.TokTy Gen.ParserTables Parse.Balanced Parse.BalancedThms Parse.Declarator Parse.DeclSpec
  Parse.DeclThms Parse.EnumList Parse.Specs Parse.MethodTail Parse.DeclStmt Parse.MemberStmt.
Open Scope N_scope.

Inductive friend_entry :=
| FrType (m : mods) (b : N)                                                       (* friend T; *)
| FrFn (m : mods) (nm : N) (rt : ty) (ps : list (ty * option N)) (va : bool) (q : mtail).

Definition friend_stmt (fuel : nat) (toks : list tk) : dres (friend_entry * list tk) :=
  match parse_specs toks with
  | DErr e => DErr e
  | DOk (m, b, r) =>
      if auto_next r then DErr 4
      else if negb (validate true true m) then DErr 3
      else
        match cvptr fuel (TBase b (m_const m) (m_volatile m)) r with
        | DErr e => DErr e
        | DOk (d, r1) =>
            if is_fn d then DErr 3
            else
              match r1 with
              | t :: r2 =>
                  if is LP t then DErr 4                               (* a grouping parenthesis / a constructor of another class *)
                  else if is T_NAME t then
                    match r2 with
                    | a :: r3 =>
                        if is LP a then
                          match params fuel r3 with
                          | DErr e => DErr e
                          | DOk (ps, va, r4) =>
                              match parse_method_end r4 with
                              | DErr e => DErr e
                              | DOk (q, r5) =>
                                  if q_body q then DOk (FrFn m (kval t) d ps va q, r5)
                                  else match r5 with
                                       | s :: r6 => if is SEMI s then DOk (FrFn m (kval t) d ps va q, r6) else DErr 1
                                       | [] => DErr 2
                                       end
                              end
                          end
                        else if is T_DBL_COLON a || is LT a then DErr 4
                        else if is SEMI a then DOk (FrType m b, r3)     (* `friend T name;`: the name is read and ignored *)
                        else DErr 1                                    (* a friend is a function or a type *)
                    | [] => DErr 1
                    end
                  else if is SEMI t then
                    match d with
                    | TBase _ _ _ => DOk (FrType m b, r2)
                    | _ => DOk (FrType m b, r2)                          (* (the decoration is dropped: the typename alone is kept) *)
                    end
                  else if memN (kty t) pqname_start_tokens then DErr 4
                  else DErr 1
              | [] => DErr 1
              end
        end
  end.

(* friend spec* T spec* <pointer / reference operators> name ( params ) quals <end> *)
Theorem friend_function_roundtrip pre post b ls n ps va quals e rest :
  forallb spec_kw pre = true -> forallb spec_kw post = true ->
  forallb is_pfx ls = true -> legalL KB ls = true ->
  layer_ok (LFn ps va) -> Forall mq_ok quals ->
  (match e with MeBody soup => bal tk kty LBRACE RBRACE soup | MeCtor _ _ => False | _ => True end) ->
  let m := apply_kws (pre ++ post) mods0 in
  let t := wrap (TBase b (m_const m) (m_volatile m)) ls in
  ev (fun f => friend_stmt f (kw_toks pre ++ nm_tok b :: kw_toks post ++ P ls [] ++ mkTk T_NAME n ::
                              ktok LP :: params_toks ps va ++ ktok RP :: flat_map mq_toks quals ++ mlast_toks e ++ rest))
     (DOk (FrFn m n t ps va (apply_end e (quals_of quals)), rest)).
Proof.
  intros Hpre Hpost Hpf Hleg [_ Hprm] Hq He m t.
  eapply (typed_stmt_rt true _ pre post b ls); try assumption; try reflexivity.  (* by conversion: MemberStmt.typed_stmt *)
  cbn beta. isc. cbn [kval]. eapply ev_bind; [apply Hprm|]. cbn beta iota.
  rewrite (method_close (FrFn _ _ _ _ _) quals e rest Hq He). apply ev_const.
Qed.

(* friend spec* T spec* ; *)
Theorem friend_type_roundtrip pre post b rest :
  forallb spec_kw pre = true -> forallb spec_kw post = true ->
  ev (fun f => friend_stmt f (kw_toks pre ++ nm_tok b :: kw_toks post ++ ktok SEMI :: rest))
     (DOk (FrType (apply_kws (pre ++ post) mods0) b, rest)).
Proof.
  intros Hpre Hpost. eapply (typed_stmt_rt true _ pre post b [] (ktok SEMI :: rest)); try assumption; try reflexivity.
  cbn beta. isc. apply ev_const.
Qed.
