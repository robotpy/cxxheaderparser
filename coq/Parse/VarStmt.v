(* A whole variable statement: specifiers and base type (Parse/Specs.v), then
   the declarator loop (Parse/Declarator.v decl_list).  Namespace scope:
   validate(var_ok = true, meth_ok = false). *)
From Coq Require Import NArith List Bool.
Import ListNotations.
From CXV Require Import Gen.TokTy Parse.Declarator Parse.DeclSpec Parse.DeclThms Parse.Specs.
Open Scope N_scope.

Definition var_stmt (n fuel : nat) (toks : list tk) : dres (mods * list (N * ty) * list tk) :=
  match parse_specs toks with
  | DErr e => DErr e
  | DOk (m, b, r) =>
      (* a namespace-scope Variable has no `mutable` field: constructing it fails and parse() reports the error *)
      if validate true false m && negb (m_mutable m) then
        match decl_list n fuel (TBase b (m_const m) (m_volatile m)) r with
        | DOk (l, r') => DOk (m, l, r')
        | DErr e => DErr e
        end
      else DErr 3
  end.

(* `spec* T spec* d1, ..., dn;` *)
Theorem var_stmt_roundtrip pre post b items rest :
  forallb spec_kw pre = true -> forallb spec_kw post = true ->
  has T_explicit (pre ++ post) = false -> has T_virtual (pre ++ post) = false -> has T_mutable (pre ++ post) = false ->
  items <> [] ->
  Forall (fun it => legalL KB (fst it) = true /\ Forall layer_ok (fst it) /\ kind_end KB (fst it) <> KFn) items ->
  ev (fun f => var_stmt (length items) f
                 (kw_toks pre ++ nm_tok b :: kw_toks post ++
                  join_comma (map (fun it => P (fst it) [mkTk T_NAME (snd it)]) items) ++ ktok SEMI :: rest))
     (DOk (apply_kws (pre ++ post) mods0,
           map (fun it => (snd it, wrap (TBase b (m_const (apply_kws (pre ++ post) mods0)) (m_volatile (apply_kws (pre ++ post) mods0))) (fst it))) items,
           rest)).
Proof.
  intros Hpre Hpost Hex Hvi Hmu Hne Hall.
  pose proof (spec_kws_app pre post Hpre Hpost) as Hk.
  assert (Hstop : spec_stop (join_comma (map (fun it => P (fst it) [mkTk T_NAME (snd it)]) items) ++ ktok SEMI :: rest) = true).
  { destruct items as [|[ls n] q]; [contradiction|]. cbn [map fst snd]. rewrite join_comma_app. apply P_head_stop. }
  unfold var_stmt. rewrite (specs_decode_app pre post b _ Hpre Hpost Hstop).
  rewrite (validate_ns_ok _ Hk Hex Hvi Hmu).
  eapply ev_bind; [now apply decl_list_layers|]. apply ev_const.
Qed.
