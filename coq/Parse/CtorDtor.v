(* Hand-written mirror of the constructor / destructor detection at the head
   of CxxParser._parse_decl: when a '(' directly follows a named type name, the
   last segment of that name is compared with the name of the class it would
   belong to -- the enclosing class inside a class body, the second-to-last
   segment for an out-of-class definition and for a friend -- and with its
   '~' form.  A segment is seen through its `name` attribute (None for segments
   that have none: anonymous, decltype); the empty name of a leading '::' is
   falsy, as in the code.
   Tied to the code by the differential run of harness/props/c03.py (the real
   _parse_decl with a recording _parse_function) and the digest pin of
   Gen/PinsC03.v. *)
From Coq Require Import NArith Arith List Bool Lia.
Import ListNotations.
Open Scope N_scope.

(* a name: tilde flag and identifier; identifier 0 is the empty string *)
Definition sname := (bool * N)%type.
Definition seg_name := option sname.

Inductive cd_kind := CDNone | CDCtor | CDDtor.

Definition sname_eqb (a b : sname) : bool := Bool.eqb (fst a) (fst b) && (snd a =? snd b).
Definition truthy (a : sname) : bool := fst a || negb (snd a =? 0).
(* f"~{cls_name}" == ret_name *)
Definition tilde_of (c r : sname) : bool := negb (fst c) && fst r && (snd c =? snd r).

Definition nth_back (k : nat) (l : list seg_name) : seg_name :=
  nth k (rev l) None.

Definition ctor_dtor (in_class is_friend is_type : bool) (cls : seg_name) (dsegs : list seg_name) : cd_kind :=
  if (in_class || Nat.ltb 1 (length dsegs)) && is_type then
    let cls_name :=
      if negb in_class then nth_back 1 dsegs
      else if negb is_friend then cls
      else if Nat.leb 2 (length dsegs) then nth_back 1 dsegs else None in
    let ret_name := nth_back 0 dsegs in
    match cls_name with
    | Some c =>
        if truthy c then
          match ret_name with
          | Some r => if sname_eqb c r then CDCtor else if tilde_of c r then CDDtor else CDNone
          | None => CDNone
          end
        else CDNone
    | None => CDNone
    end
  else CDNone.

Definition named (n : N) : seg_name := Some (false, n).
Definition tilded (n : N) : seg_name := Some (true, n).

Definition compared (c : sname) (r : seg_name) : cd_kind :=
  if truthy c then
    match r with
    | Some r => if sname_eqb c r then CDCtor else if tilde_of c r then CDDtor else CDNone
    | None => CDNone
    end
  else CDNone.

Lemma nth_back_last k (pre : list seg_name) (x : seg_name) :
  nth_back k (pre ++ [x]) = match k with O => x | S k' => nth_back k' pre end.
Proof. unfold nth_back. rewrite rev_app_distr. now destruct k. Qed.

Theorem ctor_dtor_member c (pre : list seg_name) (r : seg_name) :
  ctor_dtor true false true (Some c) (pre ++ [r]) = compared c r.
Proof. unfold ctor_dtor. cbn [orb andb negb]. now rewrite nth_back_last. Qed.

(* [pre] and [r] are annotated so that [length] below has the implicit argument it has in ctor_dtor *)
Theorem ctor_dtor_qualified in_class is_friend cls (pre : list seg_name) c (r : seg_name) :
  in_class && negb is_friend = false ->
  ctor_dtor in_class is_friend true cls (pre ++ [Some c; r]) = compared c r.
Proof.
  intros H. unfold ctor_dtor.
  assert (E : nth_back 1 (pre ++ [Some c; r]) = Some c /\ nth_back 0 (pre ++ [Some c; r]) = r).
  { change [Some c; r] with ([Some c] ++ [r]). now rewrite app_assoc, !nth_back_last. }
  destruct E as [E1 E0]. rewrite E1, E0.
  assert (L : (2 <= length (pre ++ [Some c; r]))%nat) by (rewrite app_length; cbn [length]; lia).
  rewrite (proj2 (Nat.ltb_lt _ _) L), (proj2 (Nat.leb_le _ _) L), orb_true_r.
  now destruct in_class, is_friend.
Qed.

Lemma compared_same c : c <> 0 -> compared (false, c) (named c) = CDCtor.
Proof.
  intros H. apply N.eqb_neq in H. unfold compared, truthy, sname_eqb.
  cbn [fst snd orb Bool.eqb andb named]. now rewrite H, N.eqb_refl.
Qed.

Lemma compared_tilde c : c <> 0 -> compared (false, c) (tilded c) = CDDtor.
Proof.
  intros H. apply N.eqb_neq in H. unfold compared, truthy, sname_eqb, tilde_of.
  cbn [fst snd orb Bool.eqb andb negb tilded]. now rewrite H, N.eqb_refl.
Qed.

Lemma compared_other c (t : bool) r : (t, r) <> (false, c) -> (t = true -> r <> c) -> compared (false, c) (Some (t, r)) = CDNone.
Proof.
  intros H1 H2. unfold compared, sname_eqb, tilde_of. cbn [fst snd negb andb].
  destruct (truthy (false, c)); [|reflexivity].
  destruct (N.eqb_spec c r) as [->|_]; [|now rewrite !andb_false_r].
  destruct t; [now elim (H2 eq_refl)|now elim H1].
Qed.

Theorem unqualified_outside_class x cls is_friend : ctor_dtor false is_friend true cls [x] = CDNone.
Proof. reflexivity. Qed.

Theorem decorated_type_never in_class is_friend cls dsegs : ctor_dtor in_class is_friend false cls dsegs = CDNone.
Proof. unfold ctor_dtor. now rewrite andb_false_r. Qed.

Theorem friend_unqualified h x : ctor_dtor true true true (named h) [x] = CDNone.
Proof. reflexivity. Qed.
