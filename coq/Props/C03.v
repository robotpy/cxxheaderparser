(* C03 -- Class bodies: member kinds, access levels and special members.
   Proved: the access level attached to a member on the block skeleton
   (access_in_force) and, on the statement and class-definition models, the
   forms stated below, for inputs of any size; whatever these models do not
   cover rests on the search of harness/props/c03.py. *)
From Coq Require Import NArith List Bool.
Import ListNotations.
From CXV Require Import Parse.BlocksSM Parse.BlocksSpec Parse.BlocksThms.
From CXV Require Gen.PinsC03.
From CXV Require Import Gen.ParserTables Parse.Balanced Parse.BalancedThms Parse.ClassEnum Parse.CtorDtor.
From CXV Require Import Gen.TokTy Parse.Declarator Parse.DeclSpec Parse.DeclThms Parse.BaseClause Parse.EnumList Parse.Specs Parse.Init Parse.Members Parse.MethodTail Parse.DeclStmt Parse.MemberStmt Parse.OpName Parse.FinishClass Parse.ConvOp Parse.OperatorMember Parse.FriendStmt Parse.Bodies Parse.ClassDef Parse.ClassDefThms Parse.ClassDefElems Parse.PQName Parse.Using Parse.EnumDecl Parse.Template.
Open Scope N_scope.

(* the access delivered with a member equals the backward-scan specification
   [bs]: class-key default until the first specifier of the same class body,
   then the most recent specifier of that body; nested classes before or
   around the member do not matter.  Any prefix, any nesting depth. *)
Theorem access_in_force_partial :
  forall (skip : N -> bool) (p : list BlocksSM.ev) (c id acc : N),
    sst (sfinal skip sinit p) = Running ->
    svis (sfinal skip sinit p) = true ->
    sem skip (sfinal skip sinit p) [EvItem c] = [CbItem c id acc] ->
    acc = bs 0 (rev p).
Proof. exact (fun skip p c id acc _ _ => access_in_force skip p c id acc). Qed.

(* base clauses (bases named by an identifier): every base is reported once,
   in order, with its virtual and pack flags; a base written without an access
   keyword has the class-key default whatever the bases before it said, a base
   written with one has that one; `virtual` may stand before or after the
   access keyword.  Lists of any length. *)
Theorem base_clause_decodes_partial : forall default ws rest,
  forallb access_ok ws = true -> ws <> [] -> after_bases_ok rest = true ->
  bases (length ws) default [] (join_comma (map wbase_toks ws) ++ rest) = DOk (map (resolve default) ws, rest).
Proof. exact base_clause_roundtrip. Qed.

(* field statements in a class body: the flags of the specifiers written
   (mutable, static, constexpr, inline; a field cannot be extern), one entry per
   declarator with its own type on the shared base type, its bit-field width
   and its initialiser (`= expr` or a brace group) exactly as written *)
Theorem field_statement_decodes_partial : forall pre post b items rest,
  forallb spec_kw pre = true -> forallb spec_kw post = true ->
  has T_extern (pre ++ post) = false ->
  items <> [] -> Forall (mitem_ok true false) items ->
  let m := apply_kws (pre ++ post) mods0 in
  DeclThms.ev (fun f => field_stmt (length items) f
                 (kw_toks pre ++ nm_tok b :: kw_toks post ++ join_comma (map mitem_toks items) ++ ktok SEMI :: rest))
     (DOk (m, map (mitem_out (TBase b (m_const m) (m_volatile m))) items, rest)).
Proof. exact field_stmt_roundtrip. Qed.

(* what follows a method's parameter list: the qualifiers written -- const,
   volatile, override, final, & / &&, throw(...), noexcept[(...)] -- in any order
   and number are the flags reported (a later throw / noexcept replaces an
   earlier one), then exactly one of: nothing, `= 0` (pure virtual), `= delete`,
   `= default`, a body (skipped whatever it holds), or a constructor
   initialiser list followed by a body (both skipped); parsing resumes right
   after.  Any number of qualifiers and initialisers. *)
Theorem method_tail_decodes_partial : forall items e rest,
  Forall mq_ok items -> mend_ok e rest ->
  parse_method_end (flat_map mq_toks items ++ mend_toks e ++ rest)
  = DOk (apply_end e (fold_left (fun q i => apply_mq i q) items mt0), rest).
Proof. exact parse_method_end_roundtrip. Qed.

(* the class head after the name: `final` / `explicit` in any order and number,
   an optional base clause as above, then the brace that opens the body *)
Theorem class_head_decodes_partial : forall default vs ws rest,
  forallb access_ok ws = true -> (match vs with f :: _ => f = true | [] => True end) ->
  class_head default (vs_toks vs ++ (match ws with [] => [] | _ => ktok T_LIT_58 :: join_comma (map wbase_toks ws) end) ++ ktok T_LIT_123 :: rest)
  = DOk (existsb (fun f => f) vs, existsb negb vs, map (resolve default) ws, rest).
Proof. exact class_head_roundtrip. Qed.

(* What follows an elaborated type (`struct S`, `enum class E`, ...) decides the
   kind of the member or declaration: ';' makes it a forward declaration (or,
   behind `friend`, a friend declaration -- plain `enum` included); one of
   ':' 'final' 'explicit' '{' starts a class or enum definition; anything else
   leaves the stream untouched for the variable / function parser.  The rules
   that reject: `enum E;`, a template header on an enum, `typedef struct S;`,
   `friend struct S { ... }`, and specifiers where they are not allowed. *)
Theorem forward_declaration_recognised : forall key m template rest,
  key <> [] -> validate false false m = true ->
  key_plain_enum key = false -> (template = true -> key_is_enum key = false) ->
  class_enum key m template false false (ktok SEMI :: rest) = DOk (CEForward, rest).
Proof. intros key m template rest Hk Hv He Ht. exact (semi_recognised key m template false rest Hk Hv (fun _ => He) Ht). Qed.

Theorem friend_type_declaration_recognised : forall key m rest,
  key <> [] -> validate false false m = true ->
  class_enum key m false false true (ktok SEMI :: rest) = DOk (CEFriend, rest).
Proof. intros key m rest Hk Hv. now apply (semi_recognised key m false true). Qed.

Theorem forward_declaration_rules : forall key m template is_typedef is_friend rest,
  (is_typedef = true \/ validate false false m = false \/ key = [] \/ (key_plain_enum key = true /\ is_friend = false)
   \/ (template = true /\ key_is_enum key = true)) ->
  exists e, class_enum key m template is_typedef is_friend (ktok SEMI :: rest) = DErr e.
Proof. exact forward_decl_rules. Qed.

Theorem definition_dispatched_by_class_key : forall key m template is_typedef s rest,
  is SEMI s = false -> memN (kty s) class_enum_stage2 = true ->
  validate (negb is_typedef) false m = true ->
  class_enum key m template is_typedef false (s :: rest) =
    if key_is_class key then DOk (CEClass s, rest) else if template then DErr 1 else DOk (CEEnum s, rest).
Proof. exact definition_dispatch. Qed.

Theorem definition_rules_enforced : forall key m template is_typedef is_friend s rest,
  is SEMI s = false -> memN (kty s) class_enum_stage2 = true ->
  (is_friend = true \/ validate (negb is_typedef) false m = false) ->
  exists e, class_enum key m template is_typedef is_friend (s :: rest) = DErr e.
Proof. exact definition_rules. Qed.

Theorem other_declarations_untouched : forall key m template is_typedef is_friend s rest,
  is SEMI s = false -> memN (kty s) class_enum_stage2 = false ->
  class_enum key m template is_typedef is_friend (s :: rest) = DOk (CENone, s :: rest).
Proof. exact otherwise_untouched. Qed.

(* Constructors and destructors are recognised by comparing the last segment
   of the name in front of the '(' with the name of the class it belongs to:
   inside class C, `C(` is a constructor and `~C(` a destructor whatever
   qualifies the name, and every other name is an ordinary member; outside a
   class `A::B::B(` / `A::B::~B(` are the definitions and an unqualified name
   never is; a friend declaration is compared with the befriended class; a
   decorated type (pointer, reference) in front of the '(' never is one. *)
Theorem constructor_in_class : forall c pre, c <> 0 -> ctor_dtor true false true (named c) (pre ++ [named c]) = CDCtor.
Proof.
  (* unfolded is the name the last segment is compared with, [Some c] in ctor_dtor_member / ctor_dtor_qualified; the last
     segment stays folded, as compared_same / compared_tilde state it *)
  intros c pre H. unfold named at 1. now rewrite ctor_dtor_member, compared_same.
Qed.
Theorem destructor_in_class : forall c pre, c <> 0 -> ctor_dtor true false true (named c) (pre ++ [tilded c]) = CDDtor.
Proof. intros c pre H. unfold named. now rewrite ctor_dtor_member, compared_tilde. Qed.
Theorem other_member_is_neither : forall c pre (t : bool) r, (t, r) <> (false, c) -> (t = true -> r <> c) ->
  ctor_dtor true false true (named c) (pre ++ [Some (t, r)]) = CDNone.
Proof. intros c pre t r H1 H2. unfold named. now rewrite ctor_dtor_member, compared_other. Qed.
Theorem constructor_out_of_class : forall c pre, c <> 0 -> ctor_dtor false false true None (pre ++ [named c; named c]) = CDCtor.
Proof. intros c pre H. unfold named at 1. now rewrite ctor_dtor_qualified, compared_same. Qed.
Theorem destructor_out_of_class : forall c pre, c <> 0 -> ctor_dtor false false true None (pre ++ [named c; tilded c]) = CDDtor.
Proof. intros c pre H. unfold named. now rewrite ctor_dtor_qualified, compared_tilde. Qed.
Theorem unqualified_name_outside_class_is_neither : forall x cls is_friend, ctor_dtor false is_friend true cls [x] = CDNone.
Proof. exact unqualified_outside_class. Qed.
Theorem decorated_type_is_neither : forall in_class is_friend cls dsegs, ctor_dtor in_class is_friend false cls dsegs = CDNone.
Proof. exact decorated_type_never. Qed.
Theorem friend_constructor_compares_with_befriended_class : forall h c pre, c <> 0 ->
  ctor_dtor true true true (named h) (pre ++ [named c; named c]) = CDCtor.
Proof. intros h c pre H. unfold named at 2. now rewrite ctor_dtor_qualified, compared_same. Qed.

(* How one member declaration statement is put together inside a class body
   (_parse_declarations / _parse_decl / _parse_function / _parse_field):
   `spec* T spec* m1, m2, ..., mn <end>` where every m is a field declarator (any legal
   object type, optional bit-field width, optional initialiser) or a method declarator
   (any legal return type, any parameter list of the declarator grammar, qualifiers
   const / volatile / & / && / override / final / throw / noexcept in any order), in any
   mixture and order, and <end> is ';' or, behind a last method, `= 0 ;`, `= delete ;`,
   `= default ;` or a body: exactly one member per declarator, in source order, each of
   its own kind (a parameter list behind the name makes a method, anything else a
   field), with the specifier flags and base type of the statement, its own bits /
   value / qualifier set, the body skipped exactly, the rest of the class untouched. *)
Theorem member_statement_decodes_partial : forall cls dcls pre post b items last e rest,
  forallb spec_kw pre = true -> forallb spec_kw post = true -> has T_extern (pre ++ post) = false ->
  Forall mditem_ok items -> mditem_ok last -> mlast_ok last e ->
  let m := apply_kws (pre ++ post) mods0 in
  let bt := TBase b (m_const m) (m_volatile m) in
  ev (fun f => member_stmt (S (length items)) f cls dcls
                 (kw_toks pre ++ nm_tok b :: kw_toks post ++ mitems_toks items last e ++ rest))
     (DOk (m, map (mditem_entry bt) items ++ [mlast_entry bt last e], rest)).
Proof. exact member_stmt_roundtrip. Qed.

(* Constructors and destructors as whole statements: in class C, `spec* C ( params ) quals end`
   is one method flagged constructor and `spec* ~C ( params ) quals end` one flagged destructor,
   both without return type, with exactly the parameters written, the qualifier set written and
   the ending written (';', `= delete`, `= default`, `= 0`, a body, or -- constructors -- a member
   initialiser list with its body, skipped exactly). *)
Theorem special_member_statement_decodes_partial : forall cls dcls pre nm ps va quals e rest (ctor : bool),
  forallb spec_kw pre = true -> has T_extern pre = false ->
  cls <> 0 -> dcls <> 0 -> dcls <> cls -> nm = (if ctor then cls else dcls) ->
  layer_ok (LFn ps va) -> Forall mq_ok quals ->
  (match e with MeBody soup => bal tk kty T_LIT_123 T_LIT_125 soup | MeCtor _ _ => mend_ok e rest | _ => True end) ->
  ev (fun f => member_stmt 1 f cls dcls (kw_toks pre ++ special_toks nm ps va quals e ++ rest))
     (DOk (apply_kws pre mods0, [MMethod nm None ps va ctor (negb ctor) (apply_end e (quals_of quals))], rest)).
Proof. exact special_member_roundtrip. Qed.

(* Overloaded operator names (_parse_pqname_name_operator): `operator ( )` is the call operator and
   nothing more belongs to its name, whatever follows (a parameter list, template arguments of an
   explicit specialization, the ';' of a using-declaration); every other operator's name is exactly
   the tokens up to the parameter list or the ';' *)
Theorem call_operator_is_two_tokens : forall lp rp R,
  is LP lp = true -> is RP rp = true -> op_name (lp :: rp :: R) = DOk ([lp; rp], R).
Proof. exact call_operator_name. Qed.

Theorem operator_name_is_its_tokens : forall t parts s R,
  is LP t = false -> forallb (fun x => negb (op_stop x)) parts = true -> op_stop s = true ->
  op_name (t :: parts ++ s :: R) = DOk (t :: parts, s :: R).
Proof. exact operator_name_exact. Qed.

(* What follows the closing brace of a class / enum definition (_finish_class_or_enum):
   `};` declares nothing -- except that an anonymous struct / union that is a member becomes one
   implicit unnamed field; `} d1, ..., dn ;` (trailing declarators), `typedef struct {...} d1, ..., dn;`
   and the same inside a class body yield one entry per declarator, in order, of its own kind, and
   EVERY one of them is built on the one type of the definition -- its name or the anonymous id
   it was given, with the const / volatile written in front of the class key: every entry the
   statement reports carries that one id. *)
Theorem trailing_declarators_decode_partial : forall bn c v anon su m cls dcls items last le rest,
  m_mutable m = false ->
  Forall ditem_ok items -> ditem_ok last -> last_ok last le ->
  ev (fun f => finish_class (S (length items)) f false false anon su m cls dcls bn c v (items_toks items last le ++ rest))
     (DOk (FinDecls (map (ditem_entry (TBase bn c v)) items ++ [last_entry (TBase bn c v) last le]), rest)).
Proof. exact finish_declarators. Qed.

Theorem typedef_of_class_declarators_decode_partial : forall bn c v anon su m cls dcls items last rest,
  m_mutable m = false ->
  Forall td_item_ok items -> td_item_ok last ->
  ev (fun f => finish_class (S (length items)) f false true anon su m cls dcls bn c v (items_toks items last LSemi ++ rest))
     (DOk (FinDecls (map (ditem_entry (TBase bn c v)) items ++ [ditem_entry (TBase bn c v) last]), rest)).
Proof. intros bn c v anon su m cls dcls items last rest _. apply finish_typedef_declarators. Qed.

Theorem trailing_member_declarators_decode_partial : forall bn c v anon su m cls dcls items last e rest,
  m_extern m = false ->
  Forall mditem_ok items -> mditem_ok last -> mlast_ok last e ->
  ev (fun f => finish_class (S (length items)) f true false anon su m cls dcls bn c v (mitems_toks items last e ++ rest))
     (DOk (FinMembers (map (mditem_entry (TBase bn c v)) items ++ [mlast_entry (TBase bn c v) last e]), rest)).
Proof. exact finish_member_declarators. Qed.

Theorem definition_closed_by_semicolon : forall n f in_class anon su m cls dcls bn c v semi rest,
  is SEMI semi = true ->
  finish_class n f in_class false anon su m cls dcls bn c v (semi :: rest)
  = DOk (if in_class && anon && su then FinImplicitField else FinNone, rest).
Proof. exact finish_semicolon. Qed.

Theorem anonymous_id_shared_by_its_declarators : forall bn c v items last le,
  Forall (fun e => base_of (entry_type e) = (bn, c, v))
         (map (ditem_entry (TBase bn c v)) items ++ [last_entry (TBase bn c v) last le]).
Proof. exact finish_declarators_share_the_type. Qed.

(* Conversion operators in a class body: `spec* operator cv* T cv* <pointer / reference operators> ( params ) quals <end>`
   is one method named `operator` whose return type is the conversion type (any pointer / reference nest over the named
   type), with the specifier flags written in front of `operator` (explicit, constexpr, virtual, inline ...), the
   qualifier set written behind the parameter list, and the ending written (';', `= 0` / `= delete` / `= default`, a body) *)
Theorem conversion_operator_decodes_partial : forall pre cpre cpost b ls ps va quals e rest,
  forallb spec_kw pre = true -> has T_extern pre = false ->
  forallb (fun k => (k =? T_const) || (k =? T_volatile)) (cpre ++ cpost) = true ->
  all_pfx ls = true -> legalL KB ls = true ->
  layer_ok (LFn ps va) -> Forall mq_ok quals ->
  (match e with MeBody soup => bal tk kty T_LIT_123 T_LIT_125 soup | MeCtor _ _ => False | _ => True end) ->
  let cm := apply_kws (cpre ++ cpost) mods0 in
  let t := wrap (TBase b (m_const cm) (m_volatile cm)) ls in
  ev (fun f => conv_stmt f (kw_toks pre ++ ktok T_operator :: kw_toks cpre ++ nm_tok b :: kw_toks cpost ++ P ls [] ++
                            ktok LP :: params_toks ps va ++ ktok RP :: flat_map mq_toks quals ++ mlast_toks e ++ rest))
     (DOk (mkConv (apply_kws pre mods0) t ps va (apply_end e (quals_of quals)), rest)).
Proof. exact conv_stmt_roundtrip. Qed.

(* Overloaded operators as members: `spec* T spec* <pointer / reference operators> operator <op> ( params ) quals <end>` is one
   method whose operator is exactly the tokens written behind `operator` (`( )` for the call operator), with the return
   type, parameters, specifier flags, qualifier set and ending written *)
Theorem operator_member_decodes_partial : forall pre post b ls o ps va quals e rest,
  forallb spec_kw pre = true -> forallb spec_kw post = true ->
  all_pfx ls = true -> legalL KB ls = true -> op_ok o ->
  layer_ok (LFn ps va) -> Forall mq_ok quals ->
  (match e with MeBody soup => bal tk kty T_LIT_123 T_LIT_125 soup | MeCtor _ _ => False | _ => True end) ->
  let m := apply_kws (pre ++ post) mods0 in
  let t := wrap (TBase b (m_const m) (m_volatile m)) ls in
  ev (fun f => op_member_stmt f (kw_toks pre ++ nm_tok b :: kw_toks post ++ P ls [] ++ ktok T_operator :: op_toks o ++
                                 ktok LP :: params_toks ps va ++ ktok RP :: flat_map mq_toks quals ++ mlast_toks e ++ rest))
     (DOk (mkOpM m (op_toks o) t ps va (apply_end e (quals_of quals)), rest)).
Proof. exact op_member_roundtrip. Qed.

(* Friend declarations (behind `friend`, in a class body): `spec* T spec* <pointer / reference operators> name ( params ) quals <end>`
   is one friend FUNCTION with the return type, name, parameters, qualifier set and ending written; `spec* T spec* ;` is one
   friend TYPE named T *)
Theorem friend_function_decodes_partial : forall pre post b ls n ps va quals e rest,
  forallb spec_kw pre = true -> forallb spec_kw post = true ->
  all_pfx ls = true -> legalL KB ls = true ->
  layer_ok (LFn ps va) -> Forall mq_ok quals ->
  (match e with MeBody soup => bal tk kty T_LIT_123 T_LIT_125 soup | MeCtor _ _ => False | _ => True end) ->
  let m := apply_kws (pre ++ post) mods0 in
  let t := wrap (TBase b (m_const m) (m_volatile m)) ls in
  ev (fun f => friend_stmt f (kw_toks pre ++ nm_tok b :: kw_toks post ++ P ls [] ++ mkTk T_NAME n ::
                              ktok LP :: params_toks ps va ++ ktok RP :: flat_map mq_toks quals ++ mlast_toks e ++ rest))
     (DOk (FrFn m n t ps va (apply_end e (quals_of quals)), rest)).
Proof. exact friend_function_roundtrip. Qed.

Theorem friend_type_decodes_partial : forall pre post b rest,
  forallb spec_kw pre = true -> forallb spec_kw post = true ->
  ev (fun f => friend_stmt f (kw_toks pre ++ nm_tok b :: kw_toks post ++ ktok SEMI :: rest))
     (DOk (FrType (apply_kws (pre ++ post) mods0) b, rest)).
Proof. exact friend_type_roundtrip. Qed.

(* WHOLE CLASS BODIES.  The statement loop dispatches on the first token of a statement through the regenerated table of
   CxxParser.parse; behind it stand the models above.  For a body written as any sequence of access specifiers, empty
   statements and member statements (each any statement the statement theorems cover -- abstractly: tokens that start with a
   token going to _parse_declarations and that the member models decode, whatever follows), closed by '}':
   every statement is reported once, in order, with the access in force where it is written -- the default until the first
   access specifier, then the most recent one -- and nothing of a statement reaches the next. *)
Theorem class_body_members_in_order_with_access_partial : forall n cls dcls (elems : list celem) acc stop rest,
  Forall (celem_ok n cls dcls) elems -> stop_tok stop ->
  ev (fun f => class_body (S (length elems)) n f cls dcls acc (concat (map celem_toks elems) ++ stop :: rest))
     (DOk (with_access acc elems, stop :: rest)).
Proof. exact class_body_sequence. Qed.

(* ... and the statements of member_statement_decodes_partial are such statements *)
Theorem member_statements_compose : forall cls dcls pre post b items last e,
  forallb spec_kw pre = true -> forallb spec_kw post = true -> has T_extern (pre ++ post) = false ->
  Forall mditem_ok items -> mditem_ok last -> mlast_ok last e ->
  is_decl_head (hd (nm_tok b) (kw_toks pre)) ->
  let m := apply_kws (pre ++ post) mods0 in
  let bt := TBase b (m_const m) (m_volatile m) in
  celem_ok (S (length items)) cls dcls
    (CEStmt (kw_toks pre ++ nm_tok b :: kw_toks post ++ mitems_toks items last e)
            (CMembers m (map (mditem_entry bt) items ++ [mlast_entry bt last e]))).
Proof. exact member_stmt_is_elem. Qed.

(* Whole class definitions, nested to any depth, on the PARSER side (Parse/ClassDef.v: the class statement -- class key, name,
   _maybe_parse_class_enum_decl, the head of _parse_class_decl -- the body as the statement loop under the class's own default
   access, the closing brace and _finish_class_or_enum, recursively).  For a definition written as any tree of access
   specifiers, empty statements, member statements (abstractly, as above), forward declarations and nested class
   definitions (any class key, final, any base clause): the tree is read back as written; every member, forward declaration
   and nested class carries the access in force in ITS OWN class at its position -- the class-key default of that class
   until its first access specifier, then its most recent one -- whatever nested classes stand before or around it. *)
Theorem nested_classes_keep_their_own_access_partial : forall n dt (w : wclass) rest,
  welem_ok n dt anon_base anon_base (WClass w) -> (match rest with [] => True | t :: _ => stop_tok t end) ->
  ev (fun f => body (S (S (esize (WClass w)))) n f dt None 0 0 (welem_toks (WClass w) ++ rest))
     (match wclass_spec 0 w with IClass a c => DOk ([IClass a c], 0, rest) | _ => DErr 3 end).
Proof. exact class_def_tree. Qed.

(* ... and the statements of member_statement_decodes_partial are such elements, in whichever class they stand *)
Theorem member_statements_are_tree_elements : forall dt cls dcls pre post b items last e,
  forallb spec_kw pre = true -> forallb spec_kw post = true -> has T_extern (pre ++ post) = false ->
  Forall mditem_ok items -> mditem_ok last -> mlast_ok last e ->
  is_decl_head (hd (nm_tok b) (kw_toks pre)) ->
  let m := apply_kws (pre ++ post) mods0 in
  let bt := TBase b (m_const m) (m_volatile m) in
  welem_ok (S (length items)) dt cls dcls
    (WStmt (kw_toks pre ++ nm_tok b :: kw_toks post ++ mitems_toks items last e)
           (CMembers m (map (mditem_entry bt) items ++ [mlast_entry bt last e]))).
Proof. exact member_stmt_is_welem. Qed.

(* further member kinds as tree elements ([WOne]: a statement the loop reads in one step, whatever follows): using-declarations,
   alias-declarations and enum definitions written as the printed forms of the using / enum theorems of C01 are reported once,
   as that kind, with the access in force *)
Theorem using_declaration_members_are_tree_elements : forall n dt cls dcls (tn root : bool) nm q,
  (q = [] -> root = true \/ tn = true) ->
  one_step n dt cls dcls (ktok T_using :: pn2_toks (PNames tn [] root nm q) ++ [ktok T_LIT_59])
           (fun acc => IUsing acc (UDecl (pn2_out (PNames false [] root nm q)))).
Proof. intros n dt cls dcls tn root nm q _. exact (using_declaration_is_step n dt (Some (cls, dcls)) tn root nm q). Qed.

Theorem alias_members_are_tree_elements : forall n dt cls dcls a t,
  DeclSpec.wf t -> kind_of t <> KFn ->
  one_step n dt cls dcls (ktok T_using :: mkTk T_NAME a :: ktok T_LIT_61 :: decl_toks t None ++ [ktok T_LIT_59]) (fun acc => IUsing acc (UAlias a t)).
Proof. intros n dt cls dcls a t Hwf Hk. exact (using_alias_is_step n dt (Some (cls, dcls)) a t Hwf Hk). Qed.

Theorem enum_members_are_tree_elements : forall n dt cls dcls key name p items tc,
  enum_key key ->
  (forall X, match p with Some p => base_ok p (ktok T_LIT_123 :: enum_body_toks items tc ++ X) | None => True end) ->
  Forall wenum_ok items -> (items = [] -> tc = false) ->
  one_step n dt cls dcls (enum_toks key name p items tc ++ [ktok T_LIT_59])
           (fun acc => IEnum acc mods0 key name false false (option_map pn2_out p) (map strip_e items) FinNone).
Proof.
  intros n dt cls dcls key name p items tc Hk Hb H1 _.
  exact (enum_definition_is_step n dt (Some (cls, dcls)) key name p items tc Hk Hb H1).
Qed.

Theorem opaque_enum_members_are_tree_elements : forall n dt cls dcls key name p,
  enum_key key -> (forall X, base_ok p (ktok T_LIT_59 :: X)) ->
  one_step n dt cls dcls (map ktok key ++ mkTk T_NAME name :: ktok T_LIT_58 :: pn2_toks p ++ [ktok T_LIT_59])
           (fun acc => IEnumFwd acc key name (pn2_out p)).
Proof. intros n dt cls dcls key name p Hk Hb. exact (opaque_enum_is_step n dt (Some (cls, dcls)) key name p Hk Hb). Qed.

(* class templates: a template header (any parameter list of C01's template theorem) in front of a class definition tree:
   the class is reported with exactly that header, and its members as in the untemplated case *)
Theorem class_templates_decode_partial : forall n dt h (w : wclass) T,
  Forall tp_ok h -> welem_ok n dt anon_base anon_base (WClass w) -> tail_ok T ->
  ev (fun f => body (S (S (esize (WClass w)))) n f dt None 0 0 (ktok T_template :: tlist_toks h ++ welem_toks (WClass w) ++ T))
     (DOk ([ITemplate [h] (wclass_spec 0 w)], 0, T)).
Proof. exact class_template_tree. Qed.

(* the functions the hand-written models above mirror (listed, each with its digest, in Gen/PinsC03.v) are, token for
   token of their syntax trees, the ones the models were written against: the
   translator recomputes the digests from the live code and writes Gen/PinsC03.v
   with model_code_pinned := true only when they match *)
Theorem modelled_functions_are_the_pinned_ones : PinsC03.model_code_pinned = true.
Proof. exact (eq_refl true). Qed.

Print Assumptions nested_classes_keep_their_own_access_partial.
Print Assumptions member_statements_are_tree_elements.
Print Assumptions using_declaration_members_are_tree_elements.
Print Assumptions alias_members_are_tree_elements.
Print Assumptions enum_members_are_tree_elements.
Print Assumptions class_templates_decode_partial.
Print Assumptions opaque_enum_members_are_tree_elements.
Print Assumptions class_head_decodes_partial.
Print Assumptions method_tail_decodes_partial.
Print Assumptions field_statement_decodes_partial.
Print Assumptions access_in_force_partial.
Print Assumptions base_clause_decodes_partial.

Example c03_nonvacuous :
  sem noskip (sfinal noskip sinit [EvOpen KClass 1; EvAccess 2; EvOpen KClass 2; EvAccess 3; EvClose]) [EvItem 16]
  = [CbItem 16 1 2] /\ bs 0 (rev [EvOpen KClass 1; EvAccess 2; EvOpen KClass 2; EvAccess 3; EvClose]) = 2.
Proof. vm_compute. split; reflexivity. Qed.

Example c03_bases_run :
  bases 3 T_private []
    (join_comma (map wbase_toks [mkW (Some T_public) 1 false false false; mkW None 2 true true false; mkW (Some T_protected) 3 true false true])
     ++ [ktok T_LIT_123])
  = DOk ([mkBase T_public 1 false false; mkBase T_private 2 true false; mkBase T_protected 3 true true], [ktok T_LIT_123]).
Proof. vm_compute. reflexivity. Qed.

Example c03_mtail_run :
  parse_method_end (flat_map mq_toks [MqConst; MqNoexcept None; MqOverride] ++
                    mend_toks (MeCtor [mkCI [mkTk T_NAME 7] false [mkTk 3 9] false; mkCI [mkTk T_NAME 8] true [] true] [mkTk T_NAME 5]) ++ [ktok SEMI])
  = DOk (mkMT true false true false 0 None (Some []) false false false true, [ktok SEMI]).
Proof. vm_compute. reflexivity. Qed.
Print Assumptions forward_declaration_recognised.
Print Assumptions friend_type_declaration_recognised.
Print Assumptions forward_declaration_rules.
Print Assumptions definition_dispatched_by_class_key.
Print Assumptions definition_rules_enforced.
Print Assumptions other_declarations_untouched.
Print Assumptions constructor_in_class.
Print Assumptions destructor_in_class.
Print Assumptions other_member_is_neither.
Print Assumptions constructor_out_of_class.
Print Assumptions destructor_out_of_class.
Print Assumptions unqualified_name_outside_class_is_neither.
Print Assumptions decorated_type_is_neither.
Print Assumptions friend_constructor_compares_with_befriended_class.
Print Assumptions modelled_functions_are_the_pinned_ones.
Print Assumptions member_statement_decodes_partial.
Print Assumptions special_member_statement_decodes_partial.
Print Assumptions call_operator_is_two_tokens.
Print Assumptions operator_name_is_its_tokens.
Print Assumptions trailing_declarators_decode_partial.
Print Assumptions typedef_of_class_declarators_decode_partial.
Print Assumptions trailing_member_declarators_decode_partial.
Print Assumptions definition_closed_by_semicolon.
Print Assumptions anonymous_id_shared_by_its_declarators.
Print Assumptions conversion_operator_decodes_partial.
Print Assumptions operator_member_decodes_partial.
Print Assumptions friend_function_decodes_partial.
Print Assumptions friend_type_decodes_partial.
Print Assumptions class_body_members_in_order_with_access_partial.
Print Assumptions member_statements_compose.

(* `static Foo * f1 : 3 = 1, & m2 ( Bar a ) const noexcept = 0 ;` and `explicit Cls ( ) : a ( 1 ) { }` in class Cls (ids 5 / 6) *)
Example c03_member_stmt_run :
  member_stmt 2 60 5 6 (kw_toks [T_static] ++ nm_tok 7 :: kw_toks [] ++
                        mitems_toks [MIField [LPtr false false] 1 (Some 3) (InitEq [mkTk 3 9])]
                                    (MIMethod [LRef] [(TBase 8 false false, Some 4)] false 2 [MqConst; MqNoexcept None]) MePure ++ [ktok T_LIT_125])
  = DOk (mkMods false false false false false true false false false,
         [MField (Some 1) (TPtr (TBase 7 false false) false false) (Some 3) (Some [mkTk 3 9]);
          MMethod 2 (Some (TRef (TBase 7 false false))) [(TBase 8 false false, Some 4)] false false false
                  (mkMT true false false false 0 None (Some []) true false false false)], [ktok T_LIT_125]).
Proof. vm_compute. reflexivity. Qed.

Example c03_ctor_stmt_run :
  member_stmt 1 60 5 6 (kw_toks [T_explicit] ++ special_toks 5 [] false [] (MeCtor [mkCI [mkTk T_NAME 7] false [mkTk 3 9] false] []) ++ [ktok T_LIT_125])
  = DOk (mkMods false false false false false false true false false,
         [MMethod 5 None [] false true false (mkMT false false false false 0 None None false false false true)], [ktok T_LIT_125]).
Proof. vm_compute. reflexivity. Qed.
