(* Class fields and typedefs through the same path as variables
   (CxxParser._parse_field): declarator, array, bit-field (class members only,
   a decimal integer), initialiser (not in a typedef).  With the specifier
   loop: field statements (validate(var_ok, meth_ok) in a class; a Field has no
   `extern`) and typedef statements (validate(False, False)).
   Tied to the code by the differential run of harness/props/c03.py. *)
From Coq Require Import NArith List Bool.
Import ListNotations.
From CXV Require Import Gen.TokTy Parse.Declarator Parse.DeclSpec Parse.DeclThms Parse.Specs Parse.Init.
Open Scope N_scope.

Definition COLON := T_LIT_58.

Definition bits_part (is_class is_typedef : bool) (toks : list tk) : dres (option N * list tk) :=
  match toks with
  | t :: r =>
      if is COLON t then
        if is_typedef || negb is_class then DErr 1
        else match r with
             | i :: r' => if is T_INT_CONST_DEC i then DOk (Some (kval i), r') else DErr 1
             | [] => DErr 2
             end
      else DOk (None, toks)
  | [] => DOk (None, toks)
  end.

Definition member := (N * ty * option N * option (list tk))%type.     (* name, type, bits, value *)

Fixpoint member_list (n : nat) (fuel : nat) (is_class is_typedef : bool) (b : ty) (toks : list tk)
  : dres (list member * list tk) :=
  match n with
  | O => DErr 9
  | S n' =>
      match var_tail fuel b toks with
      | DErr e => DErr e
      | DOk (nm, d, r) =>
          match bits_part is_class is_typedef r with
          | DErr e => DErr e
          | DOk (bits, r1) =>
              match init_part is_typedef r1 with
              | DErr e => DErr e
              | DOk (iv, r0) =>
                  match r0 with
                  | s :: r' =>
                      if is COMMA s then
                        match member_list n' fuel is_class is_typedef b r' with
                        | DOk (l, r'') => DOk ((nm, d, bits, iv) :: l, r'')
                        | DErr e => DErr e
                        end
                      else if is SEMI s then DOk ([(nm, d, bits, iv)], r')
                      else DErr 1
                  | [] => DErr 2
                  end
              end
          end
      end
  end.

Definition field_stmt (n fuel : nat) (toks : list tk) : dres (mods * list member * list tk) :=
  match parse_specs toks with
  | DErr e => DErr e
  | DOk (m, b, r) =>
      (* in a class: var_ok and meth_ok; a Field has no `extern` attribute *)
      if validate true true m && negb (m_extern m) then
        match member_list n fuel true false (TBase b (m_const m) (m_volatile m)) r with
        | DOk (l, r') => DOk (m, l, r')
        | DErr e => DErr e
        end
      else DErr 3
  end.

Definition typedef_stmt (n fuel : nat) (toks : list tk) : dres (list member * list tk) :=
  match parse_specs toks with
  | DErr e => DErr e
  | DOk (m, b, r) =>
      if validate false false m then member_list n fuel false true (TBase b (m_const m) (m_volatile m)) r
      else DErr 3
  end.

Definition bits_toks (bits : option N) : list tk :=
  match bits with Some k => [ktok COLON; mkTk T_INT_CONST_DEC k] | None => [] end.

Definition mitem := (list layer * N * option N * init)%type.
Definition mitem_toks (it : mitem) : list tk :=
  let '(ls, n, bits, i) := it in P ls [mkTk T_NAME n] ++ bits_toks bits ++ init_toks i.
Definition mitem_ok (is_class is_typedef : bool) (it : mitem) : Prop :=
  let '(ls, n, bits, i) := it in
  legalL KB ls = true /\ Forall layer_ok ls /\ kind_end KB ls <> KFn /\ init_ok i /\
  (bits <> None -> is_class = true /\ is_typedef = false) /\ (is_typedef = true -> i = NoInit).
Definition mitem_out (b : ty) (it : mitem) : member :=
  let '(ls, n, bits, i) := it in (n, wrap b ls, bits, init_value i).

Lemma bits_part_rt is_class is_typedef bits X :
  (bits <> None -> is_class = true /\ is_typedef = false) ->
  headb (fun t => negb (is COLON t)) X = true ->
  bits_part is_class is_typedef (bits_toks bits ++ X) = DOk (bits, X).
Proof.
  intros Hb HX. destruct bits as [k|]; cbn [bits_toks app bits_part].
  - destruct (Hb ltac:(discriminate)) as [-> ->]. reflexivity.
  - now apply head_gate.
Qed.

Lemma tail_head_sep bits i sep rest : sep_ok sep ->
  let X := bits_toks bits ++ init_toks i ++ sep :: rest in
  stops X = true /\ nolb X = true /\ nolp X = true.
Proof. intros [->| ->]; destruct bits, i; repeat split; reflexivity. Qed.

Lemma init_no_colon_sep i sep rest : sep_ok sep ->
  headb (fun t => negb (is COLON t)) (init_toks i ++ sep :: rest) = true.
Proof. intros [->| ->]; destruct i; reflexivity. Qed.

Lemma member_list_rt is_class is_typedef b c v : forall items rest,
  items <> [] -> Forall (mitem_ok is_class is_typedef) items ->
  ev (fun f => member_list (length items) f is_class is_typedef (TBase b c v)
                 (join_comma (map mitem_toks items) ++ ktok SEMI :: rest))
     (DOk (map (mitem_out (TBase b c v)) items, rest)).
Proof.
  apply (sep_rt (fun n f => member_list n f is_class is_typedef (TBase b c v))).
  intros [[[ls n] bits] i] k cm Y (Hleg & Hok & Hk & Hi & Hb & Htd). unfold mitem_toks, mitem_out. rewrite <- !app_assoc.
  destruct (tail_head_sep bits i _ Y (sep_ok_ktok cm)) as (S1 & S2 & S3).
  apply (ev_with (var_tail_layers b c v ls n _ Hleg Hok Hk S1 S2 S3)), ev_always. intros f E.
  cbn [member_list]. rewrite E.
  rewrite (bits_part_rt is_class is_typedef bits _ Hb (init_no_colon_sep i _ Y (sep_ok_ktok cm))).
  rewrite (init_part_sep is_typedef i _ Y Hi Htd (sep_ok_ktok cm)).
  now destruct cm.
Qed.

Lemma mitem_head_stop (items : list mitem) rest :
  spec_stop (join_comma (map mitem_toks items) ++ ktok SEMI :: rest) = true.
Proof.
  destruct items as [|[[[ls n] bits] i] q]; [reflexivity|]. cbn [map]. rewrite join_comma_app.
  unfold mitem_toks. rewrite <- app_assoc. apply P_head_stop.
Qed.

(* `spec* T spec* d1 [: bits] [init], ...;` in a class body *)
Theorem field_stmt_roundtrip pre post b items rest :
  forallb spec_kw pre = true -> forallb spec_kw post = true ->
  has T_extern (pre ++ post) = false ->
  items <> [] -> Forall (mitem_ok true false) items ->
  let m := apply_kws (pre ++ post) mods0 in
  ev (fun f => field_stmt (length items) f
                 (kw_toks pre ++ nm_tok b :: kw_toks post ++ join_comma (map mitem_toks items) ++ ktok SEMI :: rest))
     (DOk (m, map (mitem_out (TBase b (m_const m) (m_volatile m))) items, rest)).
Proof.
  intros Hpre Hpost Hex Hne Hall m.
  pose proof (spec_kws_app pre post Hpre Hpost) as Hk.
  unfold field_stmt. rewrite (specs_decode_app pre post b _ Hpre Hpost (mitem_head_stop items rest)).
  rewrite validate_tt, (extern_flag _ Hk), Hex. cbn [negb andb].
  eapply ev_bind; [now apply member_list_rt|]. apply ev_const.
Qed.

(* `typedef [const|volatile]* T d1, ..., dn;` : no other specifier, no bit-field, no initialiser *)
Theorem typedef_stmt_roundtrip pre post b items rest :
  forallb (fun k => (k =? T_const) || (k =? T_volatile)) (pre ++ post) = true ->
  items <> [] -> Forall (mitem_ok false true) items ->
  let m := apply_kws (pre ++ post) mods0 in
  ev (fun f => typedef_stmt (length items) f
                 (kw_toks pre ++ nm_tok b :: kw_toks post ++ join_comma (map mitem_toks items) ++ ktok SEMI :: rest))
     (DOk (map (mitem_out (TBase b (m_const m) (m_volatile m))) items, rest)).
Proof.
  intros Hcv Hne Hall m.
  destruct (cv_only_kws _ Hcv) as [Hk Hval].
  rewrite forallb_app in Hk. apply andb_prop in Hk as [Hpre Hpost].
  unfold typedef_stmt. rewrite (specs_decode_app pre post b _ Hpre Hpost (mitem_head_stop items rest)).
  rewrite Hval. now apply member_list_rt.
Qed.
