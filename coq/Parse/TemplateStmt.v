(* Hand-written mirror of CxxParser._parse_template (what a `template`
   statement is handed on to) and of CxxParser._parse_concept.

   _parse_template, entered after the `template` keyword:
     - no '<' next: an explicit instantiation (nothing consumed);
     - one header `< ... >` (Parse/Template.v tdecl), then one token:
         `template`  -> further headers, each followed by one token, until a
                        token that is not `template`: a declaration with the
                        list of all headers;
         `using` / `friend` / `concept` -> that statement with the one header;
         `requires`  -> a requires-clause, then a declaration;
         anything else -> a declaration that starts with that token.
   The model returns which continuation is taken, the headers it receives and
   the tokens left when it is entered.

   _parse_concept, entered after `concept`: NAME '=' value up to ',' or ';'
   (not consumed); rejected inside a class.
   Tied to the code by the differential run of harness/props/c01.py (the real
   methods with their continuations recorded). *)
From Coq Require Import NArith List.
Import ListNotations.
From CXV Require Import Gen.TokTy Parse.Balanced Parse.BalancedThms Parse.Declarator Parse.DeclSpec Parse.DeclThms Parse.Template.
Open Scope N_scope.

(* continuation codes: 0 instantiation, 1 using, 2 friend, 3 concept, 4 requires, 5 declaration *)
Definition K_INST : N := 0. Definition K_USING : N := 1. Definition K_FRIEND : N := 2.
Definition K_CONCEPT : N := 3. Definition K_REQUIRES : N := 4. Definition K_DECL : N := 5.

(* `while tok.type == "template": templates.append(self._parse_template_decl()); tok = self.lex.token()`,
   entered after a `template` token; [n] bounds the number of headers *)
Fixpoint more_headers (n f : nat) (acc : list (list tparam)) (toks : list tk) : dres (N * list (list tparam) * list tk) :=
  match n with
  | O => DErr 9
  | S n' =>
      match tdecl f toks with
      | DErr e => DErr e
      | DOk (h, r) =>
          match r with
          | k :: r1 => if is T_template k then more_headers n' f (h :: acc) r1 else DOk (K_DECL, rev (h :: acc), r1)
          | [] => DErr 2
          end
      end
  end.

Definition template_stmt (n f : nat) (toks : list tk) : dres (N * list (list tparam) * list tk) :=
  match toks with
  | t :: _ =>
      if is LT t then
        match tdecl f toks with
        | DErr e => DErr e
        | DOk (h, r) =>
            match r with
            | k :: r1 =>
                if is T_template k then more_headers n f [h] r1
                else if is T_using k then DOk (K_USING, [h], r1)
                else if is T_friend k then DOk (K_FRIEND, [h], r1)
                else if is T_concept k then DOk (K_CONCEPT, [h], r1)
                else if is T_requires k then DOk (K_REQUIRES, [h], r1)
                else DOk (K_DECL, [h], r1)
            | [] => DErr 2
            end
        end
      else DOk (K_INST, [], toks)
  | [] => DOk (K_INST, [], toks)
  end.

Definition concept_terms : list N := [COMMA; SEMI].

Definition concept_stmt (in_class : bool) (toks : list tk) : dres (N * list tk * list tk) :=
  match toks with
  | n :: r =>
      if is T_NAME n then
        match r with
        | e :: r1 =>
            if is EQ e then
              match consume_value_until kty concept_terms r1 with
              | Ok (v, r2) => if in_class then DErr 3 else DOk (kval n, v, r2)
              | ErrEOF => DErr 2 | ErrUnexpected _ => DErr 1 | ErrInternal => DErr 3
              end
            else DErr 1
        | [] => DErr 2
        end
      else DErr 1
  | [] => DErr 2
  end.

(* headers, each behind its `template`; a printed template statement is a first header (its keyword is consumed before
   template_stmt is entered), [headers_toks] of the further ones, then a token k *)
Fixpoint headers_toks (hs : list (list tparam)) : list tk :=
  match hs with
  | [] => []
  | h :: q => ktok T_template :: tlist_toks h ++ headers_toks q
  end.

Definition kind_of_tok (k : tk) : N :=
  if is T_using k then K_USING else if is T_friend k then K_FRIEND else if is T_concept k then K_CONCEPT
  else if is T_requires k then K_REQUIRES else K_DECL.

(* behind a `template` token: the header h, then the headers q, each behind its own `template` *)
Lemma more_headers_rt : forall q h acc k R,
  Forall tp_ok h -> Forall (Forall tp_ok) q -> is T_template k = false ->
  ev (fun f => more_headers (S (length q)) f acc (tlist_toks h ++ headers_toks q ++ k :: R))
     (DOk (K_DECL, rev acc ++ h :: q, R)).
Proof.
  induction q as [|h2 q IH]; intros h acc k R Hh Hq Hk.
  - apply (ev_with (template_params_roundtrip h (k :: R) Hh)), ev_always. intros f E.
    cbn [length more_headers headers_toks app]. now rewrite E, Hk.
  - inversion Hq as [|? ? Hh2 Hq']; subst.
    apply (ev_with (template_params_roundtrip h (headers_toks (h2 :: q) ++ k :: R) Hh)),
          (ev_with (IH h2 (h :: acc) k R Hh2 Hq' Hk)), ev_always. intros f E2 E1.
    cbn [more_headers]. rewrite E1. cbn [headers_toks app]. isc. cbn [length].
    rewrite <- app_assoc, E2. cbn [rev]. now rewrite <- app_assoc.
Qed.

Theorem template_stmt_one h k R n :
  Forall tp_ok h -> is T_template k = false ->
  ev (fun f => template_stmt n f (tlist_toks h ++ k :: R)) (DOk (kind_of_tok k, [h], R)).
Proof.
  intros Hh Hk.
  apply (ev_with (template_params_roundtrip h (k :: R) Hh)), ev_always. intros f E.
  unfold template_stmt. rewrite E. unfold tlist_toks. cbn [app]. isc.
  rewrite Hk. unfold kind_of_tok.
  destruct (is T_using k); [reflexivity|]. destruct (is T_friend k); [reflexivity|].
  destruct (is T_concept k); [reflexivity|]. destruct (is T_requires k); reflexivity.
Qed.

Theorem template_stmt_many h hs k R :
  Forall tp_ok h -> Forall (Forall tp_ok) hs -> hs <> [] -> is T_template k = false ->
  ev (fun f => template_stmt (length hs) f (tlist_toks h ++ headers_toks hs ++ k :: R)) (DOk (K_DECL, h :: hs, R)).
Proof.
  intros Hh Hhs Hne Hk. destruct hs as [|h2 q]; [contradiction|]. inversion Hhs as [|? ? Hh2 Hq]; subst.
  apply (ev_with (template_params_roundtrip h (headers_toks (h2 :: q) ++ k :: R) Hh)),
        (ev_with (more_headers_rt q h2 [h] k R Hh2 Hq Hk)), ev_always. intros f E2 E1.
  unfold template_stmt. rewrite E1. unfold tlist_toks. cbn [app headers_toks length]. isc.
  now rewrite <- app_assoc, E2.
Qed.

Theorem template_stmt_inst n f toks :
  match toks with t :: _ => is LT t = false | [] => True end ->
  template_stmt n f toks = DOk (K_INST, [], toks).
Proof. destruct toks as [|t r]; [reflexivity|]. intros H. cbn [template_stmt]. now rewrite H. Qed.

Theorem concept_roundtrip n e s R :
  Expr tk kty concept_terms e -> (is COMMA s = true \/ is SEMI s = true) ->
  concept_stmt false (mkTk T_NAME n :: ktok EQ :: e ++ s :: R) = DOk (n, e, s :: R).
Proof.
  intros He Hs.
  assert (Hstop : stops_at tk kty concept_terms (s :: R)).
  { cbn [stops_at]. destruct Hs as [H|H]; rewrite (is_kty _ _ H); reflexivity. }
  cbn [concept_stmt]. isc.
  now rewrite (value_is_whole tk kty concept_terms e (s :: R) He Hstop).
Qed.

Theorem concept_in_class_rejected toks : forall x, concept_stmt true toks <> DOk x.
Proof.
  intros x. unfold concept_stmt.
  destruct toks as [|n r]; [discriminate|]. destruct (is T_NAME n); [|discriminate].
  destruct r as [|e r1]; [discriminate|]. destruct (is EQ e); [|discriminate].
  destruct (consume_value_until kty concept_terms r1) as [[v r2]| | |]; discriminate.
Qed.
