(* Closed-form specification machine for the block skeleton, and the lemma
   that interpreting the regenerated effect atoms (Parse/BlocksSM.v over
   Gen/Blocks.v) is this machine. *)
From Coq Require Import NArith List.
Import ListNotations.
From CXV Require Import Parse.BlocksSM.
Open Scope N_scope.

Record Sp := mkSp { scur : list frame; svis : bool; snext : N; sst : status }.

Definition top_id (c : list frame) : N := match c with p :: _ => fid p | [] => 0 end.

Definition sstep (skip : N -> bool) (s : Sp) (e : ev) : Sp * list cb :=
  match sst s with
  | Running =>
    match e with
    | EvOpen k a0 =>
        let id := snext s in
        let f := mkFrame id k (svis s) a0 in
        (mkSp (f :: scur s) (svis s && negb (skip id)) (id + 1) Running,
         if svis s then [CbStart k id (top_id (scur s))] else [])
    | EvClose =>
        match scur s with
        | f :: rest =>
            let o := if svis s then [CbEnd (fkind f) (fid f)] else [] in
            match rest with
            | [] => (mkSp (scur s) (fprior f) (snext s) ErrRootPop, o)
            | _ => (mkSp rest (fprior f) (snext s) Running, o)
            end
        | [] => (mkSp (scur s) (svis s) (snext s) ErrStuck, [])
        end
    | EvItem c =>
        match scur s with
        | f :: _ => (s, if svis s then [CbItem c (fid f) (faccess f)] else [])
        | [] => (mkSp (scur s) (svis s) (snext s) ErrStuck, [])
        end
    | EvAccess a =>
        match scur s with
        | f :: rest =>
            if kind_eqb (fkind f) KClass
            then (mkSp (mkFrame (fid f) (fkind f) (fprior f) a :: rest) (svis s) (snext s) Running, [])
            else (mkSp (scur s) (svis s) (snext s) ErrAccessOutsideClass, [])
        | [] => (mkSp (scur s) (svis s) (snext s) ErrStuck, [])
        end
    end
  | _ => (s, [])
  end.

Fixpoint sem (skip : N -> bool) (s : Sp) (evs : list ev) : list cb :=
  match evs with
  | [] => []
  | e :: r => let '(s', o) := sstep skip s e in o ++ sem skip s' r
  end.

Fixpoint sfinal (skip : N -> bool) (s : Sp) (evs : list ev) : Sp :=
  match evs with
  | [] => s
  | e :: r => sfinal skip (fst (sstep skip s e)) r
  end.

Lemma sem_cons skip s e r :
  sem skip s (e :: r) = snd (sstep skip s e) ++ sem skip (fst (sstep skip s e)) r.
Proof.
  cbn [sem]. now destruct (sstep skip s e).
Qed.

Lemma sfinal_app skip : forall p q s, sfinal skip s (p ++ q) = sfinal skip (sfinal skip s p) q.
Proof.
  induction p as [|e r IH]; intros q s; cbn [app sfinal]; [reflexivity|apply IH].
Qed.

(* [sstep] as rules: these are the steps that leave the machine running,
   every other step ends in an error state *)
Inductive ok_step (skip : N -> bool) : Sp -> ev -> Sp -> list cb -> Prop :=
| ok_open c v n k a0 :
    ok_step skip (mkSp c v n Running) (EvOpen k a0)
      (mkSp (mkFrame n k v a0 :: c) (v && negb (skip n)) (n + 1) Running)
      (if v then [CbStart k n (top_id c)] else [])
| ok_close f p c v n :
    ok_step skip (mkSp (f :: p :: c) v n Running) EvClose
      (mkSp (p :: c) (fprior f) n Running)
      (if v then [CbEnd (fkind f) (fid f)] else [])
| ok_item f c v n ci :
    ok_step skip (mkSp (f :: c) v n Running) (EvItem ci)
      (mkSp (f :: c) v n Running)
      (if v then [CbItem ci (fid f) (faccess f)] else [])
| ok_access f c v n a :
    ok_step skip (mkSp (f :: c) v n Running) (EvAccess a)
      (mkSp (mkFrame (fid f) (fkind f) (fprior f) a :: c) v n Running) [].

Lemma sstep_ok skip s e :
  sst (fst (sstep skip s e)) = Running ->
  ok_step skip s e (fst (sstep skip s e)) (snd (sstep skip s e)).
Proof.
  destruct s as [c v n []]; try discriminate.
  unfold sstep. cbn [sst scur svis snext].
  destruct e as [k a0| |ci|a].
  - constructor.
  - destruct c as [|f [|p c]]; try discriminate. constructor.
  - destruct c as [|f c]; try discriminate. constructor.
  - destruct c as [|f c]; try discriminate.
    destruct (kind_eqb (fkind f) KClass); try discriminate. constructor.
Qed.

Definition sinit : Sp := mkSp [root] true 1 Running.

Definition obs (m : M) : Sp := mkSp (cur m) (vis m) (nextid m) (st m).

Lemma step_is_sstep skip m e :
  obs (step skip m e) = fst (sstep skip (obs m) e) /\
  out (step skip m e) = rev (snd (sstep skip (obs m) e)) ++ out m.
Proof.
  destruct m as [c v n o rs rp s]. unfold step, sstep, obs. cbn [st sst cur vis nextid out].
  destruct s; try (split; reflexivity).
  destruct e as [k a0| |ci|a].
  - (* only the user's visitor is asked whether to skip *)
    destruct v; [|destruct k; split; reflexivity].
    destruct k; lazy; destruct (skip n); split; reflexivity.
  - destruct c as [|f [|p c']]; destruct v; split; reflexivity.
  - destruct c as [|f c']; destruct v; split; reflexivity.
  - destruct c as [|f c']; [split; reflexivity|].
    destruct f as [i k pr ac]; destruct k; split; reflexivity.
Qed.

Lemma steps_are_sem skip : forall evs m,
  rev (out (fold_left (step skip) evs m)) = rev (out m) ++ sem skip (obs m) evs /\
  obs (fold_left (step skip) evs m) = sfinal skip (obs m) evs.
Proof.
  induction evs as [|e r IH]; intros m; cbn [fold_left].
  - cbn [sem sfinal]. now rewrite app_nil_r.
  - destruct (step_is_sstep skip m e) as [E1 E2].
    destruct (IH (step skip m e)) as [I1 I2].
    rewrite I1, I2, E1, E2, sem_cons. cbn [sfinal].
    rewrite rev_app_distr, rev_involutive, <- app_assoc. split; reflexivity.
Qed.

Theorem run_is_sem skip evs :
  stream (run skip evs) = CbParseStart 0 :: sem skip sinit evs /\
  obs (run skip evs) = sfinal skip sinit evs.
Proof. exact (steps_are_sem skip evs init). Qed.
