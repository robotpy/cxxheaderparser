(* Theorems about the block skeleton (C05 prune, C04 well-formedness,
   C03 access in force, C06 rejections).  The statements are about [sstep]
   and its runs [sem] / [sfinal] of BlocksSpec.v, which run_is_sem ties to
   the interpreted atoms; stream_wellformed_run alone is stated on the
   interpreted machine itself. *)
From Coq Require Import NArith List Bool.
Import ListNotations.
From CXV Require Import Parse.BlocksSM Parse.BlocksSpec.
Open Scope N_scope.

Lemma sstep_stuck skip s e : sst s <> Running -> sstep skip s e = (s, []).
Proof. unfold sstep. destruct (sst s); congruence. Qed.

Lemma error_is_final skip s evs : sst s <> Running -> sfinal skip s evs = s /\ sem skip s evs = [].
Proof.
  intros H. induction evs as [|e r IH]; [now split|].
  cbn [sem sfinal]. now rewrite (sstep_stuck skip s e H).
Qed.

Lemma running_before skip s evs : sst (sfinal skip s evs) = Running -> sst s = Running.
Proof.
  intros H.
  assert (D : sst s = Running \/ sst s <> Running).
  { destruct (sst s); [now left|right; discriminate..]. }
  destruct D as [D|D]; [exact D|].
  destruct (error_is_final skip s evs D) as [F _].
  rewrite F in H. contradiction.
Qed.

(* C05.  Remove, from a callback stream, the inside and the end callback of every
   block whose start callback returned False *)
Fixpoint prune (skip : N -> bool) (depth : nat) (s : list cb) : list cb :=
  match s with
  | [] => []
  | e :: r =>
      match depth with
      | O =>
          match e with
          | CbStart _ id _ => e :: prune skip (if skip id then 1%nat else O) r
          | _ => e :: prune skip O r
          end
      | S d =>
          match e with
          | CbStart _ _ _ => prune skip (S depth) r
          | CbEnd _ _ => prune skip d r
          | _ => prune skip depth r
          end
      end
  end.

Definition noskip : N -> bool := fun _ => false.

(* The unskipped run is the run with every visitor flag erased: [erase]
   commutes with a step, whatever [skip] is. *)
Definition erase_frame (f : frame) : frame := mkFrame (fid f) (fkind f) true (faccess f).
Definition erase (s : Sp) : Sp := mkSp (map erase_frame (scur s)) true (snext s) (sst s).

(* visitors in force, innermost first: inside the current block, then inside
   each enclosing one *)
Definition visseq (s : Sp) : list bool := svis s :: map fprior (scur s).

(* When, while the machine runs, [visseq s] is d times false and then true
   throughout, the skipping run is inside d skipped blocks, and [prune] at
   depth d turns the unskipped output of one step into the skipping one. *)
Lemma prune_step skip s e d k :
  (sst s = Running -> visseq s = repeat false d ++ repeat true (S k)) ->
  fst (sstep noskip (erase s) e) = erase (fst (sstep skip s e)) /\
  exists d' k',
    (sst (fst (sstep skip s e)) = Running -> visseq (fst (sstep skip s e)) = repeat false d' ++ repeat true (S k')) /\
    forall tail, prune skip d (snd (sstep noskip (erase s) e) ++ tail)
                 = snd (sstep skip s e) ++ prune skip d' tail.
Proof.
  destruct s as [c v n []]; [|intros H; split; [reflexivity|now exists d, k]..].
  unfold visseq, erase, sstep. cbn [scur svis snext sst]. intros H. specialize (H eq_refl).
  (* visseq gains a head at an open and loses its head at a close; (d', k') is, where the machine goes on (else any k' does):
       open:  at d = 0, (1, k) if the block is skipped and (0, S k) if not; at d > 0, (S d, k)
       close: at d = 0, (0, k - 1); at d > 0, (d - 1, k)                      item, access: (d, k) *)
  destruct e as [kd a0| |ci|ac].
  - replace (top_id (map erase_frame c)) with (top_id c) by now destruct c.
    split; [reflexivity|]. cbn [fst snd scur svis map fprior].
    destruct d as [|d]; injection H as -> Hc; rewrite Hc.
    + destruct (skip n) eqn:Hsk.
      * exists 1%nat, k. cbn. now rewrite Hsk.
      * exists O, (S k). cbn. now rewrite Hsk.
    + now exists (S (S d)), k.
  - destruct c as [|f [|p c]]; cbn [map fst snd scur svis fprior sst].
    + split; [reflexivity|now exists d, k].
    + (* the root: the machine stops, only the end callback is compared *)
      split; [reflexivity|].
      destruct d as [|d]; injection H as -> _; [now exists O, k|now exists d, k].
    + split; [reflexivity|].
      destruct d as [|d]; injection H as -> Hc; rewrite Hc.
      * destruct k as [|k]; [discriminate|]. now exists O, k.
      * now exists d, k.
  - destruct c as [|f c]; (split; [reflexivity|]); exists d, k; (split; [now intros _|]).
    + reflexivity.
    + destruct d; injection H as ->; reflexivity.
  - destruct c as [|f c]; cbn [map]; [split; [reflexivity|now exists d, k]|].
    cbn [fkind erase_frame].
    destruct (kind_eqb (fkind f) KClass); (split; [reflexivity|now exists d, k]).
Qed.

Theorem prune_sem skip : forall evs s d k,
  (sst s = Running -> visseq s = repeat false d ++ repeat true (S k)) ->
  sem skip s evs = prune skip d (sem noskip (erase s) evs).
Proof.
  induction evs as [|e r IH]; intros s d k Hs; cbn [sem]; [reflexivity|].
  destruct (prune_step skip s e d k Hs) as (Eb & d' & k' & Hs' & Hp).
  destruct (sstep skip s e) as [s' o], (sstep noskip (erase s) e) as [b' ob].
  cbn [fst snd] in *. subst b'.
  rewrite Hp. f_equal. now apply (IH s' d' k').
Qed.

Definition fk (f : frame) : N * kind := (fid f, fkind f).

Fixpoint wf (open : list (N * kind)) (s : list cb) : option (list (N * kind)) :=
  match s with
  | [] => Some open
  | CbParseStart _ :: _ => None
  | CbStart k id par :: r =>
      match open with
      | (p, _) :: _ => if par =? p then wf ((id, k) :: open) r else None
      | [] => None
      end
  | CbEnd k id :: r =>
      match open with
      | (i, k') :: o' => if (i =? id) && kind_eqb k k' then wf o' r else None
      | [] => None
      end
  | CbItem c id _ :: r =>
      match open with
      | (i, _) :: _ => if i =? id then wf open r else None
      | [] => None
      end
  end.

Lemma kind_eqb_refl k : kind_eqb k k = true.
Proof. destruct k; reflexivity. Qed.

Definition allvis (s : Sp) : Prop := Forall (eq true) (visseq s) /\ scur s <> [].

Lemma ok_step_allvis s e s' o : ok_step noskip s e s' o -> allvis s -> allvis s'.
Proof.
  unfold allvis, visseq.
  intros [c v n k a0|f p c v n|f c v n ci|f c v n a] [Hv Hne]; cbn [scur svis map fprior] in *;
    (split; [|discriminate]); inversion Hv as [|? ? <- Hp]; subst.
  - now repeat constructor.
  - now inversion Hp as [|? ? <- Hp'].
  - exact Hv.
  - exact Hv.
Qed.

Lemma wf_sem : forall evs s, allvis s -> sst (sfinal noskip s evs) = Running ->
  wf (map fk (scur s)) (sem noskip s evs) = Some (map fk (scur (sfinal noskip s evs))).
Proof.
  induction evs as [|e r IH]; intros s Hv Hrun; [reflexivity|].
  pose proof (sstep_ok noskip s e (running_before noskip _ r Hrun)) as Hok.
  rewrite sem_cons. cbn [sfinal] in *.
  rewrite <- (IH _ (ok_step_allvis _ _ _ _ Hok Hv) Hrun). clear IH Hrun.
  destruct Hv as [Hv Hne]. inversion Hv as [|? ? Hvis _].
  destruct Hok as [c v n k a0|f p c v n|f c v n ci|f c v n a]; cbn [svis scur] in *; subst v; cbn.
  - destruct c as [|f c]; [congruence|]. cbn. now rewrite N.eqb_refl.
  - now rewrite N.eqb_refl, kind_eqb_refl.
  - now rewrite N.eqb_refl.
  - reflexivity.
Qed.

(* C04: nesting, parents, innermost-state of every item; and the blocks still
   open in the stream are exactly the blocks still open in the source *)
Theorem stream_wellformed_run evs :
  st (run noskip evs) = Running ->
  exists tail, stream (run noskip evs) = CbParseStart 0 :: tail /\
    wf [(0, KNs)] tail = Some (map fk (cur (run noskip evs))).
Proof.
  intros H. destruct (run_is_sem noskip evs) as [E1 E2].
  exists (sem noskip sinit evs). split; [exact E1|].
  (* wf_sem speaks of the last state [sfinal]; that is what is observed of the run *)
  pose proof (wf_sem evs sinit) as W. rewrite <- E2 in W.
  apply W; [split; [now repeat constructor|discriminate]|exact H].
Qed.

(* C03: access in force.  Independent specification: scan the events before
   the member BACKWARDS, skipping closed nested blocks; the first access
   specifier met at nesting depth 0 decides, and if the opening of the
   member's own class body is met first, the class-key default does. *)

Fixpoint bs (d : nat) (l : list ev) : N :=
  match l with
  | [] => 0
  | EvClose :: r => bs (S d) r
  | EvOpen _ a0 :: r => match d with O => a0 | S d' => bs d' r end
  | EvAccess a :: r => match d with O => a | S _ => bs d r end
  | EvItem _ :: r => bs d r
  end.

(* scanned backwards from any point of a run, [bs d] is the access in force in
   the d-th block around that point *)
Theorem access_inv skip : forall p,
  sst (sfinal skip sinit p) = Running ->
  forall d f, nth_error (scur (sfinal skip sinit p)) d = Some f -> faccess f = bs d (rev p).
Proof.
  induction p as [|e p IH] using rev_ind; intros Hrun.
  - intros [|[|d]] f [= <-]. reflexivity.
  - rewrite sfinal_app in *. cbn [sfinal] in *.
    specialize (IH (running_before skip _ [e] Hrun)).
    rewrite rev_app_distr. cbn [rev app].
    pose proof (sstep_ok skip _ e Hrun) as Hok. clear Hrun.
    destruct (sstep skip (sfinal skip sinit p) e) as [s' o]. cbn [fst snd] in *.
    destruct Hok as [c v n k a0|g q c v n|g c v n ci|g c v n a]; cbn [scur bs] in *.
    + intros [|d] f; [now intros [= <-]|apply IH].
    + intros d. apply (IH (S d)).
    + exact IH.
    + intros [|d] f; [now intros [= <-]|apply (IH (S d))].
Qed.

(* a delivered item shows that the machine is running and the visitor is the user's *)
Theorem access_in_force skip p c id acc :
  sem skip (sfinal skip sinit p) [EvItem c] = [CbItem c id acc] -> acc = bs 0 (rev p).
Proof.
  intros Hsem. pose proof (access_inv skip p) as Hinv.
  destruct (sfinal skip sinit p) as [[|f cc] [] n []]; try discriminate.
  injection Hsem as _ <-. now apply (Hinv eq_refl 0%nat).
Qed.

(* C06: structural rejections of the block machine *)
Lemma stray_close_rejected skip s f :
  sst s = Running -> scur s = [f] -> sst (fst (sstep skip s EvClose)) = ErrRootPop.
Proof. intros H1 H2. unfold sstep. rewrite H1, H2. reflexivity. Qed.

Lemma access_outside_class_rejected skip s f rest a :
  sst s = Running -> scur s = f :: rest -> fkind f <> KClass ->
  sst (fst (sstep skip s (EvAccess a))) = ErrAccessOutsideClass.
Proof.
  intros H1 H2 H3. unfold sstep. rewrite H1, H2.
  destruct (fkind f); cbn; try reflexivity. congruence.
Qed.
