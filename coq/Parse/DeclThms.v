(* The declarator round trip: parsing the printed form of a legal type tree
   yields that tree (C02), for the printer that mirrors types.py (C17).
   The head of the file is what every proof about a fuelled parser uses: [ev] ("for every sufficiently
   large fuel"), the filter [eventually] with its three rules and the combinators derived from them, and
   the theorems about comma loops, commas_rt and sep_rt. *)
From Coq Require Import NArith List Bool Lia Arith.
Import ListNotations.
From CXV Require Import Gen.TokTy Parse.BalancedThms Parse.Declarator Parse.DeclSpec.
(* exported: every file that reasons with ev also runs a parser on written tokens *)
From CXV Require Export Parse.Toolkit.
Open Scope N_scope.

Definition ev {A} (F : nat -> A) (v : A) : Prop := exists f0, forall f, (f0 <= f)%nat -> F f = v.

(* Facts that hold for every sufficiently large fuel form a filter: [ev F v] is
   [eventually (fun f => F f = v)] by conversion.  A proof brings the facts it needs to one fuel with
   [apply ev_next, (ev_with H1), (ev_with H2), ev_always. intros f E2 E1.] and never names a bound;
   [cbn [g]] then does one step of a fuelled fixpoint g at fuel [S f]. *)
Definition eventually (Q : nat -> Prop) : Prop := exists f0, forall f, (f0 <= f)%nat -> Q f.

Lemma ev_always {Q : nat -> Prop} : (forall f, Q f) -> eventually Q.
Proof. intros H. exists 0%nat. intros f _. apply H. Qed.

Lemma ev_with {Q R : nat -> Prop} : eventually Q -> eventually (fun f => Q f -> R f) -> eventually R.
Proof.
  intros [f1 H1] [f2 H2]. exists (Nat.max f1 f2). intros f Hf. apply H2; [|apply H1]; lia.
Qed.

Lemma ev_next {Q : nat -> Prop} : eventually (fun f => Q (S f)) -> eventually Q.
Proof. intros [f0 H]. exists (S f0). intros [|f] Hf; [lia|]. apply H. lia. Qed.

Lemma ev_S {A} (F G : nat -> A) v :
  (forall f, G (S f) = F f) -> ev F v -> ev G v.
Proof. intros E H. apply ev_next, (ev_with H), ev_always. intros f <-. apply E. Qed.

Lemma ev_ext {A} (F G : nat -> A) v : (forall f, F f = G f) -> ev G v -> ev F v.
Proof. intros E H. apply (ev_with H), ev_always. intros f <-. apply E. Qed.

Lemma ev_bind {A B} (F : nat -> dres A) (K : nat -> A -> dres B) x r :
  ev F (DOk x) -> ev (fun f => K f x) r ->
  ev (fun f => match F f with DOk y => K f y | DErr e => DErr e end) r.
Proof. intros H1 H2. apply (ev_with H1), (ev_with H2), ev_always. intros f E2 E1. now rewrite E1. Qed.

Lemma ev_gate {A} (c : tk -> bool) X (e : nat -> tk -> list tk -> A) (k : nat -> A) v :
  headb (fun a => negb (c a)) X = true -> ev k v ->
  ev (fun f => match X with a :: r => if c a then e f a r else k f | [] => k f end) v.
Proof. intros H. apply ev_ext. intros f. now apply head_gate. Qed.

Lemma ev_unique {A} (F : nat -> A) v w : ev F v -> ev F w -> v = w.
Proof.
  intros [f1 H1] [f2 H2]. rewrite <- (H1 (Nat.max f1 f2)) by lia. apply H2. lia.
Qed.

Lemma ev_const {A} (v : A) : ev (fun _ => v) v.
Proof. exists 0%nat. reflexivity. Qed.

(* Comma loops: any [loop n fuel toks] (n rounds left) that reads one written item and its ',' and goes on
   reads the written list. *)
Section SepRt.
  Context {A B : Type} (loop : nat -> nat -> list tk -> dres (list B * list tk))
          (pr : A -> list tk) (out : A -> B) (ok : A -> Prop).

  Section General.
    Hypothesis comma_step : forall a n Y, ok a -> eventually (fun f =>
      loop (S n) f (pr a ++ ktok COMMA :: Y) =
        match loop n f Y with DOk (l, r) => DOk (out a :: l, r) | DErr e => DErr e end).

    Theorem commas_rt xs Z l rest : Forall ok xs ->
      ev (fun f => loop 1 f Z) (DOk (l, rest)) ->
      ev (fun f => loop (S (length xs)) f (commas pr xs Z)) (DOk (map out xs ++ l, rest)).
    Proof.
      intros Hxs HZ. induction Hxs as [|a q Ha Hq IH]; [exact HZ|].
      apply (ev_with (comma_step a (S (length q)) (commas pr q Z) Ha)), (ev_with IH), ev_always. intros f E2 E1.
      cbn [length commas]. now rewrite E1, E2.
    Qed.
  End General.

  Hypothesis step : forall a n (cm : bool) Y, ok a -> eventually (fun f =>
    loop (S n) f (pr a ++ ktok (if cm then COMMA else SEMI) :: Y) =
      if cm then match loop n f Y with DOk (l, r) => DOk (out a :: l, r) | DErr e => DErr e end
      else DOk ([out a], Y)).

  Theorem sep_rt xs rest : xs <> [] -> Forall ok xs ->
    ev (fun f => loop (length xs) f (join_comma (map pr xs) ++ ktok SEMI :: rest)) (DOk (map out xs, rest)).
  Proof.
    intros Hne H. destruct (exists_last Hne) as (q & a & ->). apply Forall_app in H as [Hq Ha]. inversion Ha; subst.
    rewrite !map_app, app_length, Nat.add_comm. cbn [length Nat.add map]. rewrite join_comma_snoc.
    apply commas_rt; [intros x n Y; exact (step x n true Y)|assumption|]. now apply (step a 0%nat false).
  Qed.
End SepRt.

(* where the pointer loop stops *)
Definition stops (s : list tk) : bool :=
  match s with
  | t :: r => negb (is STAR t || is T_const t || is T_volatile t || is AMP t || is T_DBL_AMP t)
              && (negb (is LP t) || match r with t2 :: _ => negb (is_pfx_tok t2) | [] => true end)
  | [] => true
  end.

Definition lp_head (s : list tk) : bool := match s with t :: _ => is LP t | [] => false end.
Definition nolb (s : list tk) : bool := match s with t :: _ => negb (is LB t) | [] => true end.
Definition nolp (s : list tk) : bool := match s with t :: _ => negb (is LP t) | [] => true end.
Definition pfx_head (s : list tk) : bool := match s with t :: _ => is_pfx_tok t | [] => false end.

Lemma nolb_set : forall s, nolb s = hd_out [LB] s.
Proof. as_set. Qed.

Lemma nolp_set : forall s, nolp s = hd_out [LP] s.
Proof. as_set. Qed.

Lemma stops_hd s : stops s = true -> hd_out [STAR; T_const; T_volatile; AMP; T_DBL_AMP] s = true.
Proof.
  destruct s as [|t r]; [reflexivity|]. cbn [stops hd_out headb]. intros H. apply andb_prop in H as [H _].
  rewrite <- nor_memN. cbn [existsb]. now rewrite ?orb_assoc, orb_false_r.
Qed.

Lemma stops_lp t r : stops (t :: r) = true -> is LP t = true -> headb (fun t2 => negb (is_pfx_tok t2)) r = true.
Proof. cbn [stops]. intros H Hlp. apply andb_prop in H as [_ H]. rewrite Hlp in H. exact H. Qed.

Lemma after_stops k d s : stops s = true -> after_k k d s = DOk (d, s).
Proof.
  destruct s as [|t r]; [reflexivity|]. intros H. unfold after_k.
  now rewrite !(hd_out_is _ _ _ _ (stops_hd _ H)) by reflexivity.
Qed.

(* a parameter list is where the loop stops: a printed parameter starts with no pointer / reference operator *)
Lemma params_stops ps va Y : stops (ktok LP :: params_toks ps va ++ ktok RP :: Y) = true.
Proof.
  cbn [stops]. isc. destruct (params_head (fun t => negb (is_pfx_tok t)) ps va Y) as (t0 & r0 & -> & H); try reflexivity.
  exact H.
Qed.

Section Loop.
Variable nf : bool.   (* nonptr_fn *)
Notation loop := (cvptr_g nf).

(* with the flag set the loop does not stop at a parenthesis *)
Lemma ev_stops_g s d : stops s = true -> nf && lp_head s = false -> ev (fun f => loop f d s) (DOk (d, s)).
Proof.
  intros H Hl. apply ev_next, ev_always. intros f. cbn [cvptr_g]. destruct s as [|t r]; [now apply after_stops|].
  rewrite !(hd_out_is _ _ _ _ (stops_hd _ H)) by reflexivity.
  destruct (is LP t) eqn:Elp; [|now apply after_stops].
  cbn [lp_head] in Hl. rewrite Elp, andb_true_r in Hl. rewrite Hl.
  rewrite (head_gate _ r _ _ (stops_lp t r H Elp)). now apply after_stops.
Qed.

Lemma loop_star d Y : is_ref d = false -> forall f, loop (S f) d (ktok STAR :: Y) = loop f (TPtr d false false) Y.
Proof. intros Hd f. cbn [cvptr_g]. isc. now rewrite Hd. Qed.

Lemma loop_const d c v Y f : loop (S f) (TPtr d c v) (ktok T_const :: Y) = loop f (TPtr d true v) Y.
Proof. cbn [cvptr_g]. isc. reflexivity. Qed.

Lemma loop_volatile d c v Y f : loop (S f) (TPtr d c v) (ktok T_volatile :: Y) = loop f (TPtr d c true) Y.
Proof. cbn [cvptr_g]. isc. reflexivity. Qed.

Lemma step_ptr acc c v X R :
  is_ref acc = false ->
  ev (fun f => loop f (TPtr acc c v) X) R ->
  ev (fun f => loop f acc (ktok STAR :: cvtoks c v ++ X)) R.
Proof.
  intros Hr H. apply (ev_S _ _ _ (loop_star acc _ Hr)).
  destruct c, v; cbn [cvtoks app].
  - eapply ev_S; [apply loop_const|]. eapply ev_S; [apply loop_volatile|]. exact H.
  - eapply ev_S; [apply loop_const|]. exact H.
  - eapply ev_S; [apply loop_volatile|]. exact H.
  - exact H.
Qed.

(* behind '&' the loop goes on only at a parenthesis; otherwise it has stopped, and R is what it stopped with *)
Lemma step_ref acc (rv : bool) X R :
  is_ref acc = false ->
  ev (fun f => loop f (if rv then TRRef acc else TRef acc) X) R ->
  lp_head X || stops X = true ->
  ev (fun f => loop f acc (ktok (if rv then T_DBL_AMP else AMP) :: X)) R.
Proof.
  intros Hr H Hx.
  assert (HR : lp_head X = false -> R = DOk (if rv then TRRef acc else TRef acc, X)).
  { intros E. rewrite E in Hx. apply (ev_unique _ _ _ H), ev_stops_g; [exact Hx|]. now rewrite E, andb_false_r. }
  apply ev_next, (ev_with H), ev_always. intros f E.
  assert (Hgo : match X with
                | t2 :: _ => if is LP t2 then loop f (if rv then TRRef acc else TRef acc) X
                             else DOk (if rv then TRRef acc else TRef acc, X)
                | [] => DOk (if rv then TRRef acc else TRef acc, X)
                end = R).
  { destruct X as [|t2 X']; [now rewrite HR|]. cbn [lp_head] in HR. destruct (is LP t2); [exact E|now rewrite HR]. }
  cbn [cvptr_g]. destruct rv; isc; unfold after_k; isc; rewrite Hr; exact Hgo.
Qed.

Lemma step_group acc inner rest' d1 r1 d2 r2 :
  pfx_head inner = true -> SNk inner ->
  ev (fun f => behind_k (arrtype f) (params f) acc rest') (DOk (d1, r1)) ->
  ev (fun f => loop f d1 (inner ++ r1)) (DOk (d2, r2)) ->
  stops r2 = true ->
  ev (fun f => loop f acc (ktok LP :: inner ++ ktok RP :: rest')) (DOk (d2, r2)).
Proof.
  intros Hp Hs H1 H2 Hst. apply ev_next, (ev_with H1), (ev_with H2), ev_always. intros f E2 E1.
  cbn [cvptr_g]. isc.
  destruct inner as [|t2 inner']; [discriminate|]. cbn [pfx_head] in Hp. cbn [app]. rewrite Hp.
  unfold group_k. rewrite app_comm_cons.
  rewrite consume_group by (reflexivity || discriminate || assumption).
  cbn [lift]. rewrite E1, middle_group, E2. now apply after_stops.
Qed.

End Loop.

Definition layer_ok (l : layer) : Prop :=
  match l with
  | LArr s => SNk s
  | LFn ps va => SNk (params_toks ps va) /\
                 forall rest, ev (fun f => params f (params_toks ps va ++ ktok RP :: rest)) (DOk (ps, va, rest))
  | _ => True
  end.

Lemma SN_P ls : Forall layer_ok ls -> forall core, SNk core -> SNk (P ls core).
Proof.
  induction 1 as [|l ls Hl Hls IH]; intros core Hc; [exact Hc|].
  destruct l as [c v| | |s|ps va]; cbn [P].
  - apply SN_plain_tok; [reflexivity|]. apply SN_app; [apply SN_cvtoks|now apply IH].
  - apply SN_plain_tok; [reflexivity|]. now apply IH.
  - apply SN_plain_tok; [reflexivity|]. now apply IH.
  - apply SN_app; [apply SN_paren_if; now apply IH|]. now apply SN_bracket.
  - apply SN_app; [apply SN_paren_if; now apply IH|]. apply SN_paren. exact (proj1 Hl).
Qed.

(* array layers are given innermost first and printed outermost first *)
Lemma P_arrs_snoc arrs s : P (map LArr (arrs ++ [s])) [] = ktok LB :: s ++ ktok RB :: P (map LArr arrs) [].
Proof.
  induction arrs as [|a r IH]; [reflexivity|]. cbn [map app P]. rewrite IH.
  replace (starts_pfx (map LArr (r ++ [s]))) with false by (destruct r; reflexivity).
  replace (starts_pfx (map LArr r)) with false by (destruct r; reflexivity).
  cbn [paren app]. now rewrite <- app_assoc.
Qed.

Lemma wrap_app acc a b : wrap acc (a ++ b) = wrap (wrap acc a) b.
Proof. apply fold_left_app. Qed.

Lemma arr_tail d arrs rest :
  arrs <> [] -> is_ref d = false -> Forall layer_ok (map LArr arrs) -> nolb rest = true ->
  exists A, P (map LArr arrs) [] ++ rest = ktok LB :: A /\
            ev (fun f => arrtype f d (ktok LB) A) (DOk (wrap d (map LArr arrs), rest)).
Proof.
  intros Hne Hr Hsn Hnl. induction arrs as [|s r IH] using rev_ind; [contradiction|]. clear Hne.
  exists (s ++ ktok RB :: P (map LArr r) [] ++ rest). split.
  { rewrite P_arrs_snoc. cbn [app]. now rewrite <- app_assoc. }
  rewrite map_app in *. apply Forall_app in Hsn as [Hsr Hs]. inversion Hs as [|? ? Hs' _]; subst. cbn [layer_ok] in Hs'.
  rewrite wrap_app. cbn [map wrap fold_left wrap1].
  destruct r as [|a r'].
  - apply ev_next, ev_always. intros f. cbn [arrtype].
    rewrite Hr, consume_group by (reflexivity || discriminate || assumption). cbn [lift map P app].
    rewrite middle_group. now apply (head_gate (is LB)).
  - destruct (IH ltac:(discriminate) Hsr) as (A & EA & HA).
    apply ev_next, (ev_with HA), ev_always. intros f E. cbn [arrtype].
    rewrite Hr, consume_group by (reflexivity || discriminate || assumption). cbn [lift].
    rewrite middle_group, EA. isc. now rewrite E.
Qed.

Definition kind_end (k : kd) (m : list layer) : kd := fold_left (fun _ l => kind_after l) m k.

Lemma kind_wrap m : forall acc, kind_of (wrap acc m) = kind_end (kind_of acc) m.
Proof.
  unfold wrap, kind_end. induction m as [|l m IH]; intros acc; [reflexivity|].
  cbn [fold_left]. rewrite IH. f_equal. destruct l; reflexivity.
Qed.

Lemma kind_end_app k a b : kind_end k (a ++ b) = kind_end (kind_end k a) b.
Proof. apply fold_left_app. Qed.

Lemma legalL_app a : forall k b, legalL k (a ++ b) = legalL k a && legalL (kind_end k a) b.
Proof.
  induction a as [|l a IH]; intros k b; [reflexivity|].
  cbn [app legalL]. rewrite IH. unfold kind_end. cbn [fold_left]. now rewrite andb_assoc.
Qed.

(* The loop is followed over a decomposition ls = m ++ t of the layers: suffix layers only in t, and m empty or
   ending in a prefix layer. *)
Definition ends_pfx (m : list layer) : Prop := is_pfx (last m LRef) = true.

Lemma ends_pfx_tl l m : ends_pfx (l :: m) -> ends_pfx m.
Proof. destruct m; [reflexivity|trivial]. Qed.

Lemma ends_pfx_of_kind k m : (kind_end k m = KB \/ kind_end k m = KRef) -> ends_pfx m.
Proof.
  destruct m as [|l m' _] using rev_ind; [reflexivity|]. unfold ends_pfx. rewrite last_last, kind_end_app. cbn.
  destruct l; intuition discriminate.
Qed.

Lemma all_pfx_ends ls : forallb is_pfx ls = true -> ends_pfx ls.
Proof.
  destruct ls as [|l r _] using rev_ind; [reflexivity|]. unfold ends_pfx. rewrite forallb_app, last_last. cbn.
  intros H. apply andb_prop in H as [_ H]. now rewrite andb_true_r in H.
Qed.

Lemma wrap_ends_pfx acc m : ends_pfx m -> is_fn acc = false -> is_fn (wrap acc m) = false.
Proof.
  destruct m as [|l m' _] using rev_ind; [trivial|]. unfold ends_pfx. rewrite last_last, wrap_app.
  intros Hl _. now destruct l.
Qed.

Definition all_sfx (ls : list layer) : bool := forallb (fun l => negb (is_pfx l)) ls.

Lemma all_sfx_cons l r : all_sfx (l :: r) = true -> is_pfx l = false /\ all_sfx r = true.
Proof. intros H. apply andb_prop in H as [Hl Hr]. now apply negb_true_iff in Hl. Qed.

Lemma all_sfx_arrs arrs : all_sfx (map LArr arrs) = true.
Proof. induction arrs as [|s r IH]; [reflexivity|exact IH]. Qed.

Lemma P_sfx_cons l r core : is_pfx l = false -> P (l :: r) core = paren (starts_pfx r) (P r core) ++ P [l] [].
Proof. destruct l; try discriminate; reflexivity. Qed.

Lemma P_sfx run tl core : all_sfx run = true -> run <> [] ->
  P (run ++ tl) core = paren (starts_pfx tl) (P tl core) ++ P run [].
Proof.
  induction run as [|l r IH]; intros Ha Hne; [contradiction|]. destruct (all_sfx_cons _ _ Ha) as [Hl Hr].
  cbn [app]. rewrite (P_sfx_cons l (r ++ tl) core Hl). destruct r as [|l2 r2]; [reflexivity|].
  rewrite (P_sfx_cons l (l2 :: r2) [] Hl), (IH Hr) by discriminate. destruct (all_sfx_cons _ _ Hr) as [Hl2 _].
  cbn [app starts_pfx]. rewrite Hl2. cbn [paren]. now rewrite app_assoc.
Qed.

Lemma P_only_sfx t core : all_sfx t = true -> P t core = core ++ P t [].
Proof.
  intros H. destruct t as [|l r]; [now rewrite app_nil_r|].
  rewrite <- (app_nil_r (l :: r)) at 1. now rewrite P_sfx.
Qed.

Lemma legal_sfx k r : legalL k r = true -> all_sfx r = true ->
  match k with KArr => exists arrs, r = map LArr arrs | KFn => r = [] | _ => True end.
Proof.
  revert k. induction r as [|l r IH]; intros k Hl Ha.
  - destruct k; trivial. now exists [].
  - apply andb_prop in Hl as [Hk Hl]. destruct (all_sfx_cons _ _ Ha) as [Hp Ha'].
    specialize (IH _ Hl Ha'). destruct k; trivial; destruct l; try discriminate.
    cbn [kind_after] in IH. destruct IH as [arrs ->]. now exists (s :: arrs).
Qed.

Lemma sfx_shape k t : legalL k t = true -> all_sfx t = true ->
  (exists arrs, t = map LArr arrs) \/ (exists ps va, t = [LFn ps va]).
Proof.
  destruct t as [|l r]; [left; now exists []|]. intros Hl Ha.
  apply andb_prop in Hl as [_ Hl]. destruct (all_sfx_cons _ _ Ha) as [Hp Ha']. pose proof (legal_sfx _ _ Hl Ha') as H.
  destruct l; try discriminate Hp; cbn [kind_after] in H.
  - destruct H as [arrs ->]. left. now exists (s :: arrs).
  - subst r. right. now exists ps, va.
Qed.

Lemma behind_run acc run rest :
  run <> [] -> all_sfx run = true -> legalL (kind_of acc) run = true -> Forall layer_ok run -> nolb rest = true ->
  ev (fun f => behind_k (arrtype f) (params f) acc (P run [] ++ rest)) (DOk (wrap acc run, rest)).
Proof.
  intros Hne Ha Hl Hok Hnl. destruct (sfx_shape _ _ Hl Ha) as [[arrs ->]|(ps & va & ->)].
  - destruct arrs as [|s arrs]; [contradiction|].
    assert (Hnf : is_fn acc = false) by (destruct acc; try reflexivity; discriminate).
    assert (Hnr : is_ref acc = false) by (destruct acc; try reflexivity; discriminate).
    destruct (arr_tail acc (s :: arrs) rest ltac:(discriminate) Hnr Hok Hnl) as (A & -> & HA).
    apply (ev_with HA), ev_always. intros f E. unfold behind_k. isc. now rewrite Hnf.
  - assert (Hnf : is_fn acc = false) by (destruct acc; try reflexivity; discriminate).
    inversion Hok as [|? ? Hfn _]; subst. destruct Hfn as [_ Hprm]. cbn [P starts_pfx paren app].
    apply (ev_with (Hprm rest)), ev_always. intros f E. unfold behind_k. isc.
    rewrite <- app_assoc. cbn [app]. now rewrite E, Hnf.
Qed.

Lemma sfx_split : forall m l, is_pfx l = false -> ends_pfx (l :: m) ->
  exists run m2, l :: m = run ++ m2 /\ run <> [] /\ all_sfx run = true /\ starts_pfx m2 = true /\
                 (length m2 <= length m)%nat /\ ends_pfx m2.
Proof.
  induction m as [|l2 m IH]; intros l Hl He; [unfold ends_pfx in He; cbn in He; congruence|].
  destruct (is_pfx l2) eqn:E2.
  - exists [l], (l2 :: m). cbn [all_sfx forallb]. rewrite Hl. repeat split; try assumption; [discriminate|lia].
  - destruct (IH l2 E2 He) as (run & m2 & E & _ & Ha & Hs & Hlen & He2).
    exists (l :: run), m2. repeat split; try assumption; [cbn [app]; now rewrite E|discriminate| |cbn [length]; lia].
    cbn [all_sfx forallb]. rewrite Hl. exact Ha.
Qed.

Lemma pfx_head_P ls core rest : starts_pfx ls = true -> pfx_head (P ls core ++ rest) = true.
Proof. destruct ls as [|[c v| | |s|ps va] r]; try discriminate; intros _; reflexivity. Qed.

(* only a parameter list may follow a reference *)
Lemma okl_not_ref acc l : okl (kind_of acc) l = true -> kind_after l <> KFn -> is_ref acc = false.
Proof. destruct acc, l; try reflexivity; try discriminate; intros _ H; now elim H. Qed.

Lemma ref_follow m t core rest :
  legalL KRef (m ++ t) = true -> ends_pfx m -> stops (P t core ++ rest) = true ->
  lp_head (P (m ++ t) core ++ rest) || stops (P (m ++ t) core ++ rest) = true.
Proof.
  (* legalL allows only a function layer l2 right behind a reference, and a function layer is no prefix
     layer: m cannot be [l2], and with more layers behind it l2 is printed around a group, `(` first *)
  destruct m as [|l2 [|l3 m3]]; cbn [app].
  - intros _ _ ->. apply orb_true_r.
  - destruct l2; discriminate.
  - destruct l2; try discriminate. destruct l3; try discriminate; reflexivity.
Qed.

(* _parse_cv_ptr_or_fn on a printed declarator, for either flag: whatever the loop does once the layers t are
   left, it does from the start, with m applied to the type (t is arbitrary; the callers pass the suffix layers) *)
Theorem loop_layers nf : forall n m, (length m <= n)%nat -> forall t acc core rest d r,
  ends_pfx m ->
  legalL (kind_of acc) (m ++ t) = true -> Forall layer_ok (m ++ t) -> SNk core ->
  stops (P t core ++ rest) = true -> nolb rest = true ->
  ev (fun f => cvptr_g nf f (wrap acc m) (P t core ++ rest)) (DOk (d, r)) -> stops r = true ->
  ev (fun f => cvptr_g nf f acc (P (m ++ t) core ++ rest)) (DOk (d, r)).
Proof.
  induction n as [|n IH]; intros m Hlen t acc core rest d r He Hleg Hok Hcore Hst Hnl Htail Hr.
  { destruct m; [exact Htail|cbn in Hlen; lia]. }
  destruct m as [|l m1]; [exact Htail|]. cbn [length] in Hlen.
  destruct (is_pfx l) eqn:Epl.
  - pose proof (ends_pfx_tl _ _ He) as He1.
    cbn [app legalL] in Hleg, Hok. apply andb_prop in Hleg as [Hokl Hleg]. inversion Hok as [|? ? _ Hok1]; subst.
    assert (Hnr : is_ref acc = false) by (apply (okl_not_ref _ _ Hokl); destruct l; discriminate).
    assert (IH1 : forall acc1, kind_of acc1 = kind_after l -> wrap acc1 m1 = wrap acc (l :: m1) ->
              ev (fun f => cvptr_g nf f acc1 (P (m1 ++ t) core ++ rest)) (DOk (d, r))).
    { intros acc1 Ek Ew. apply (IH m1 ltac:(lia) t acc1 core rest d r); try assumption.
      - now rewrite Ek.
      - now rewrite Ew. }
    destruct l as [c v| | |s|ps va]; try discriminate Epl; cbn [app P].
    + rewrite <- app_assoc. apply step_ptr; [exact Hnr|]. now apply IH1.
    + apply (step_ref nf acc false); [exact Hnr|now apply IH1|now apply ref_follow].
    + apply (step_ref nf acc true); [exact Hnr|now apply IH1|now apply ref_follow].
  - (* a run of suffix layers: printed behind a group, which a prefix layer opens *)
    destruct (sfx_split m1 l Epl He) as (run & m2 & E & Hne & Ha & Hs & Hlen2 & He2).
    (* the loop reads the run behind the `)` first and enters the group holding [wrap acc run] (behind_run):
       Hleg and Htail are re-associated into the premises of IH for m2 at that accumulator *)
    rewrite E, <- app_assoc in *. rewrite legalL_app in Hleg. apply andb_prop in Hleg as [Hlrun Hleg].
    apply Forall_app in Hok as [Hokrun Hok]. rewrite wrap_app in Htail. rewrite <- kind_wrap in Hleg.
    assert (Hsp : starts_pfx (m2 ++ t) = true) by (destruct m2; [discriminate|exact Hs]).
    rewrite (P_sfx run (m2 ++ t) core Ha Hne), Hsp.
    cbn [paren app]. rewrite <- !app_assoc. cbn [app].
    apply (step_group nf acc _ _ (wrap acc run) rest d r).
    + rewrite <- (app_nil_r (P _ _)). now apply pfx_head_P.
    + now apply SN_P.
    + now apply behind_run.
    + apply (IH m2 ltac:(lia)); assumption.
    + exact Hr.
Qed.

Corollary loop_split nf m t acc core rest :
  ends_pfx m -> legalL (kind_of acc) (m ++ t) = true -> Forall layer_ok (m ++ t) -> SNk core ->
  stops (P t core ++ rest) = true -> nf && lp_head (P t core ++ rest) = false -> nolb rest = true ->
  ev (fun f => cvptr_g nf f acc (P (m ++ t) core ++ rest)) (DOk (wrap acc m, P t core ++ rest)).
Proof.
  intros He Hleg Hok Hcore Hst Hlp Hnl.
  apply (loop_layers nf _ m (le_n _) t); try assumption. now apply ev_stops_g.
Qed.

(* the decomposition there is: [mainl ls] are the layers up to the last prefix operator, which the
   pointer loop applies; [traill ls] are the suffix layers behind it, which it leaves to its caller *)
Fixpoint mainl (ls : list layer) : list layer :=
  match ls with [] => [] | l :: r => if all_sfx ls then [] else l :: mainl r end.
Fixpoint traill (ls : list layer) : list layer :=
  match ls with [] => [] | l :: r => if all_sfx ls then ls else traill r end.

Lemma main_trail ls : mainl ls ++ traill ls = ls.
Proof.
  induction ls as [|l r IH]; [reflexivity|]. cbn [mainl traill].
  destruct (all_sfx (l :: r)); [reflexivity|]. cbn [app]. now rewrite IH.
Qed.

Lemma traill_sfx ls : all_sfx (traill ls) = true.
Proof.
  induction ls as [|l r IH]; [reflexivity|]. cbn [traill]. now destruct (all_sfx (l :: r)) eqn:E.
Qed.

Lemma mainl_ends ls : ends_pfx (mainl ls).
Proof.
  induction ls as [|l r IH]; [reflexivity|]. cbn [mainl]. destruct (all_sfx (l :: r)) eqn:E; [reflexivity|].
  destruct (mainl r) eqn:Em; [|exact IH]. unfold ends_pfx. cbn [last].
  destruct (is_pfx l) eqn:El; [reflexivity|].
  change (all_sfx (l :: r)) with (negb (is_pfx l) && all_sfx r) in E. rewrite El in E.
  destruct r as [|l2 r2]; [discriminate|]. cbn [mainl] in Em. destruct (all_sfx (l2 :: r2)); discriminate.
Qed.

Fixpoint lead_arrs (ls : list layer) : list (list tk) :=
  match ls with LArr s :: r => s :: lead_arrs r | _ => [] end.
Fixpoint drop_arrs (ls : list layer) : list layer :=
  match ls with LArr _ :: r => drop_arrs r | _ => ls end.

Lemma split_arrs ls : ls = map LArr (lead_arrs ls) ++ drop_arrs ls.
Proof. induction ls as [|[| | |s|] r IH]; try reflexivity. cbn [lead_arrs drop_arrs map app]. now rewrite <- IH. Qed.

Lemma obj_split ls : legalL KB ls = true -> kind_end KB ls <> KFn ->
  exists m arrs, ls = m ++ map LArr arrs /\ ends_pfx m.
Proof.
  intros Hleg Hk. rewrite <- (main_trail ls) in Hleg, Hk. rewrite legalL_app in Hleg. apply andb_prop in Hleg as [_ Hleg].
  destruct (sfx_shape _ _ Hleg (traill_sfx ls)) as [[arrs E]|(ps & va & E)].
  - exists (mainl ls), arrs. split; [now rewrite <- E, main_trail|apply mainl_ends].
  - elim Hk. now rewrite kind_end_app, E.
Qed.

Lemma SN_name nm : SNk (name_toks nm).
Proof. destruct nm; [apply SN_plain_tok; [reflexivity|]|]; constructor. Qed.

(* what the pointer loop, stopping with type d, leaves behind the name of an object declarator for t: nothing of the
   declarator (d = t), or the array suffixes that make t of d *)
Definition arrs_left (d : ty) (R : list tk) (t : ty) (rest : list tk) : Prop :=
  (R = rest /\ d = t) \/ exists A, R = ktok LB :: A /\ ev (fun f => arrtype f d (ktok LB) A) (DOk (t, rest)).

Lemma declarator_arr nf b c v ls nm rest :
  legalL KB ls = true -> Forall layer_ok ls -> kind_end KB ls <> KFn ->
  stops rest = true -> nf && lp_head rest = false -> nolb rest = true ->
  exists d R,
    ev (fun f => cvptr_g nf f (TBase b c v) (P ls (name_toks nm) ++ rest)) (DOk (d, name_toks nm ++ R)) /\
    is_fn d = false /\ arrs_left d R (wrap (TBase b c v) ls) rest.
Proof.
  intros Hleg Hok Hk Hst Hlp Hnl. destruct (obj_split ls Hleg Hk) as (m & arrs & -> & He).
  pose proof (loop_split nf m (map LArr arrs) (TBase b c v) (name_toks nm) rest He Hleg Hok
                (SN_name nm)) as Hcv.
  rewrite (P_only_sfx _ _ (all_sfx_arrs arrs)), <- app_assoc in Hcv.
  rewrite legalL_app in Hleg. apply andb_prop in Hleg as [_ Hleg]. apply Forall_app in Hok as [_ Hok].
  pose proof (kind_wrap m (TBase b c v)) as Ek. cbn [kind_of] in Ek. rewrite <- Ek in Hleg.
  rewrite wrap_app. set (d := wrap (TBase b c v) m) in *.
  assert (Hnf : is_fn d = false) by now apply wrap_ends_pfx.
  exists d. destruct arrs as [|s arrs'].
  - exists rest. split; [|split; [exact Hnf|now left]].
    apply Hcv; [destruct nm; [reflexivity|exact Hst]|destruct nm; [apply andb_false_r|exact Hlp]|exact Hnl].
  - assert (Hnr : is_ref d = false) by (cbn [map legalL] in Hleg; destruct d; try reflexivity; discriminate).
    destruct (arr_tail d (s :: arrs') rest ltac:(discriminate) Hnr Hok Hnl) as (A & EA & HA).
    rewrite EA in Hcv. exists (ktok LB :: A). split; [|split; [exact Hnf|right; now exists A]].
    apply Hcv; [now destruct nm|destruct nm; apply andb_false_r|exact Hnl].
Qed.

(* the array part of _parse_field reads what is left *)
Lemma field_arr d R t rest :
  arrs_left d R t rest -> nolb rest = true ->
  ev (fun f => match R with a :: r3 => if is LB a then arrtype f d a r3 else DOk (d, R) | [] => DOk (d, R) end)
     (DOk (t, rest)).
Proof.
  intros [[-> ->]|(A & -> & H)] Hnl.
  - apply (ev_gate (is LB)); [exact Hnl|apply ev_const].
  - isc. exact H.
Qed.

Lemma arrs_left_head (h : tk -> bool) d R t rest :
  arrs_left d R t rest -> h (ktok LB) = true -> headb h rest = true -> headb h R = true.
Proof. intros [[-> _]|(A & -> & _)] Hb Hr; assumption. Qed.

(* base_toks (TBase b c v), the written base type, from its parts *)
Definition name_tok (b : N) : tk := if b =? 0 then ktok T_void else mkTk T_NAME b.
Definition base_toks3 (b : N) (c v : bool) : list tk := cvtoks c v ++ [name_tok b].

Definition nocv (s : list tk) : bool :=
  match s with t :: _ => negb (is T_const t || is T_volatile t) | [] => true end.

Lemma nocv_set : forall s, nocv s = hd_out [T_const; T_volatile] s.
Proof. as_set. Qed.

Lemma base_cv_stop c v X : nocv X = true -> base_cv c v X = (c, v, X).
Proof.
  destruct X as [|t r]; [reflexivity|]. rewrite nocv_set. intros H. cbn [base_cv].
  now rewrite !(hd_out_is _ _ _ _ H) by reflexivity.
Qed.

Lemma base_cv_printed b c v X : base_cv false false (base_toks3 b c v ++ X) = (c, v, name_tok b :: X).
Proof.
  unfold base_toks3, name_tok. destruct c, v; cbn [cvtoks app base_cv]; isc; destruct (b =? 0); isc; reflexivity.
Qed.

Lemma parse_base_rt b c v X : nocv X = true ->
  parse_base (base_toks3 b c v ++ X) = DOk (TBase b c v, X).
Proof.
  intros HX. unfold parse_base. rewrite base_cv_printed. unfold name_tok.
  destruct (N.eqb_spec b 0) as [->|Hb]; isc; now rewrite (base_cv_stop c v X HX).
Qed.

Lemma parse_base_printed b c v ls nm rest : (nm = None -> nocv rest = true) ->
  parse_base (base_toks3 b c v ++ P ls (name_toks nm) ++ rest) = DOk (TBase b c v, P ls (name_toks nm) ++ rest).
Proof.
  intros H. apply parse_base_rt. apply (head_P (fun t => negb (is T_const t || is T_volatile t))); try reflexivity.
  destruct nm; [reflexivity|now apply H].
Qed.

Lemma follow_stops rest : follow_ok rest = true -> stops rest = true.
Proof.
  rewrite follow_ok_set. destruct rest as [|t r]; [reflexivity|]. intros H. cbn [stops].
  now rewrite !(hd_out_is _ _ _ _ H) by reflexivity.
Qed.

Lemma follow_nolb rest : follow_ok rest = true -> nolb rest = true.
Proof. rewrite follow_ok_set, nolb_set. now apply hd_out_sub. Qed.

Lemma follow_nolp rest : follow_ok rest = true -> nolp rest = true.
Proof. rewrite follow_ok_set, nolp_set. now apply hd_out_sub. Qed.

Lemma follow_nocv rest : follow_ok rest = true -> nocv rest = true.
Proof. rewrite follow_ok_set, nocv_set. now apply hd_out_sub. Qed.

Lemma kind_layers t : kind_end KB (layers t) = kind_of t.
Proof.
  destruct (base_of t) as [[b c] v] eqn:E. rewrite <- (wrap_layers t b c v E) at 2. now rewrite kind_wrap.
Qed.

Lemma decl_view t nm : exists b c v,
  decl_toks t nm = base_toks3 b c v ++ P (layers t) (name_toks nm) /\
  wrap (TBase b c v) (layers t) = t.
Proof.
  unfold decl_toks, base_toks. rewrite D_is_P. destruct (base_of t) as [[b c] v] eqn:E.
  exists b, c, v. split; [reflexivity|now apply wrap_layers].
Qed.

Lemma param_of_layers t nm rest :
  legalL KB (layers t) = true -> Forall layer_ok (layers t) -> kind_of t <> KFn -> follow_ok rest = true ->
  ev (fun f => param f (decl_toks t nm ++ rest)) (DOk ((t, nm), rest)).
Proof.
  intros Hleg Hok Hk Hf. destruct (decl_view t nm) as (b & c & v & Ed & Ew). rewrite <- kind_layers in Hk.
  destruct (declarator_arr false b c v (layers t) nm rest Hleg Hok Hk (follow_stops _ Hf) eq_refl (follow_nolb _ Hf))
    as (d & R & H1 & Hnf & HR).
  rewrite Ew in HR. rewrite Ed, <- app_assoc.
  pose proof (parse_base_printed b c v (layers t) nm rest (fun _ => follow_nocv _ Hf)) as Hpb.
  rewrite follow_ok_set in Hf.
  assert (Hend : forall x : dres ((ty * option N) * list tk),
            match rest with q :: _ => if is EQ q then DErr 4 else x | [] => x end = x).
  { intros x. destruct rest as [|t0 r]; [reflexivity|]. now rewrite (hd_out_is _ _ _ _ Hf). }
  destruct HR as [[-> ->]|(A & -> & H2)].
  - apply ev_next, (ev_with H1), ev_always. intros f E1. cbn [param]. rewrite Hpb, E1, Hnf.
    destruct nm as [n|]; cbn [name_toks app]; isc; cbn [tl kval].
    + destruct rest as [|t0 r]; [reflexivity|]. now rewrite !(hd_out_is _ _ _ _ Hf) by reflexivity.
    + destruct rest as [|t0 r]; [reflexivity|]. now rewrite !(hd_out_is _ _ _ _ Hf) by reflexivity.
  - apply ev_next, (ev_with H1), (ev_with H2), ev_always. intros f E2 E1. cbn [param]. rewrite Hpb, E1, Hnf.
    destruct nm as [n|]; cbn [name_toks app]; isc; cbn [tl kval]; isc; rewrite E2; apply Hend.
Qed.

Lemma var_tail_layers b c v ls n rest :
  legalL KB ls = true -> Forall layer_ok ls -> kind_end KB ls <> KFn ->
  stops rest = true -> nolb rest = true -> nolp rest = true ->
  ev (fun f => var_tail f (TBase b c v) (P ls [mkTk T_NAME n] ++ rest))
     (DOk (n, wrap (TBase b c v) ls, rest)).
Proof.
  intros Hleg Hok Hk Hst Hnb Hnp.
  destruct (declarator_arr false b c v ls (Some n) rest Hleg Hok Hk Hst eq_refl Hnb) as (d & R & H1 & Hnf & HR).
  cbn [name_toks] in H1.
  destruct HR as [[-> ->]|(A & -> & H2)].
  - apply (ev_with H1), ev_always. intros f E1. unfold var_tail. rewrite E1, Hnf. cbn [app]. isc. cbn [kval].
    rewrite nolb_set in Hnb. rewrite nolp_set in Hnp.
    destruct rest as [|t r]; [reflexivity|]. now rewrite (hd_out_is _ _ _ _ Hnb), (hd_out_is _ _ _ _ Hnp).
  - apply (ev_with H1), (ev_with H2), ev_always. intros f E2 E1. unfold var_tail. rewrite E1, Hnf. cbn [app]. isc.
    cbn [kval]. now rewrite E2.
Qed.

Lemma var_tail_follow b c v ls n rest :
  legalL KB ls = true -> Forall layer_ok ls -> kind_end KB ls <> KFn -> follow_ok rest = true ->
  ev (fun f => var_tail f (TBase b c v) (P ls [mkTk T_NAME n] ++ rest))
     (DOk (n, wrap (TBase b c v) ls, rest)).
Proof.
  intros Hleg Hok Hk Hf. apply var_tail_layers; auto using follow_stops, follow_nolb, follow_nolp.
Qed.

Lemma decl_list_layers b c v items rest :
  items <> [] ->
  Forall (fun it => legalL KB (fst it) = true /\ Forall layer_ok (fst it) /\ kind_end KB (fst it) <> KFn) items ->
  ev (fun f => decl_list (length items) f (TBase b c v)
                 (join_comma (map (fun it => P (fst it) [mkTk T_NAME (snd it)]) items) ++ ktok SEMI :: rest))
     (DOk (map (fun it => (snd it, wrap (TBase b c v) (fst it))) items, rest)).
Proof.
  apply (sep_rt (fun n f => decl_list n f (TBase b c v))).
  intros [ls n] k cm Y (Hleg & Hok & Hk). cbn [fst snd].
  assert (Hf : follow_ok (ktok (if cm then COMMA else SEMI) :: Y) = true) by now destruct cm.
  apply (ev_with (var_tail_follow b c v ls n _ Hleg Hok Hk Hf)), ev_always. intros f E.
  cbn [decl_list]. rewrite E. now destruct cm.
Qed.

Definition param_rt (p : ty * option N) : Prop :=
  forall rest, follow_ok rest = true ->
    ev (fun f => param f (decl_toks (fst p) (snd p) ++ rest)) (DOk (p, rest)).

Lemma param_first t nm : exists t0 r0, decl_toks t nm = t0 :: r0 /\ is T_ELLIPSIS t0 = false /\ is RP t0 = false.
Proof.
  destruct (decl_first (fun t => negb (is T_ELLIPSIS t || is RP t)) t nm) as (t0 & r0 & E & H); try reflexivity.
  exists t0, r0. apply negb_true_iff, orb_false_elim in H. now split.
Qed.

Lemma ploop_param f acc t nm X :
  ploop (S f) acc (decl_toks t nm ++ X) =
    match param f (decl_toks t nm ++ X) with
    | DOk (p, s :: r2) => if is COMMA s then ploop f (p :: acc) r2
                          else if is RP s then DOk (void_conv (rev (p :: acc)), false, r2) else DErr 1
    | DOk (p, []) => DErr 2
    | DErr e' => DErr e'
    end.
Proof.
  destruct (param_first t nm) as (t0 & r0 & Eh & Hell & _). rewrite Eh. cbn [ploop app]. now rewrite Hell.
Qed.

Lemma ploop_commas ps : forall acc Z v, Forall param_rt ps ->
  ev (fun f => ploop f (rev ps ++ acc) Z) v ->
  ev (fun f => ploop f acc (commas (fun p => decl_toks (fst p) (snd p)) ps Z)) v.
Proof.
  induction ps as [|p q IH]; intros acc Z v Hps H; [exact H|].
  inversion Hps as [|? ? Hp Hq]; subst. cbn [commas rev] in *. rewrite <- app_assoc in H. cbn [app] in H.
  specialize (Hp (ktok COMMA :: commas (fun p0 => decl_toks (fst p0) (snd p0)) q Z) eq_refl).
  apply ev_next, (ev_with Hp), (ev_with (IH (p :: acc) Z v Hq H)), ev_always.
  intros f E2 E1. rewrite ploop_param, E1. isc. exact E2.
Qed.

Lemma ploop_rt ps va rest :
  Forall param_rt ps -> (ps <> [] \/ va = true) ->
  ev (fun f => ploop f [] (params_toks ps va ++ ktok RP :: rest)) (DOk (void_conv ps, va, rest)).
Proof.
  intros Hps Hne. unfold params_toks. destruct va; cbn [va_toks].
  - rewrite join_comma_snoc. apply ploop_commas; [exact Hps|]. rewrite app_nil_r.
    apply ev_next, ev_always. intros f. cbn [ploop app]. isc. now rewrite rev_involutive.
  - destruct Hne as [Hne|]; [|discriminate]. destruct (exists_last Hne) as (q & a & ->).
    apply Forall_app in Hps as [Hq Ha]. inversion Ha as [|? ? Hpa _]; subst.
    rewrite app_nil_r, map_app. cbn [map]. rewrite join_comma_snoc. apply ploop_commas; [exact Hq|]. rewrite app_nil_r.
    apply ev_next, (ev_with (Hpa (ktok RP :: rest) eq_refl)), ev_always. intros f E.
    rewrite ploop_param, E. isc. cbn [rev]. now rewrite rev_involutive.
Qed.

Lemma void_conv_id ps : Forall (fun p => not_lone_void (fst p)) ps -> void_conv ps = ps.
Proof.
  intros H. destruct ps as [|[t nm] q]; [reflexivity|]. destruct q; [|destruct t as [[|?] ? ?| | | | |]; reflexivity].
  inversion H as [|? ? H1 _]; subst. cbn [fst] in H1.
  destruct t as [[|?] ? ?| | | | |]; try reflexivity. contradiction.
Qed.

Lemma params_rt ps va rest :
  Forall param_rt ps -> Forall (fun p => not_lone_void (fst p)) ps ->
  ev (fun f => params f (params_toks ps va ++ ktok RP :: rest)) (DOk (ps, va, rest)).
Proof.
  intros Hps Hnv.
  assert (Hc : (ps = [] /\ va = false) \/ (ps <> [] \/ va = true)).
  { destruct ps, va; auto; right; left; discriminate. }
  destruct Hc as [[-> ->]|Hne].
  - apply ev_next, ev_always. intros f. cbn [params]. unfold params_toks. cbn [map app va_toks join_comma]. isc.
    reflexivity.
  - destruct (params_head (fun t => negb (is RP t)) ps va rest) as (t0 & r0 & E0 & Hrp); try reflexivity.
    { intros -> ->. destruct Hne; [contradiction|discriminate]. }
    apply negb_true_iff in Hrp.
    apply ev_next, (ev_with (ploop_rt ps va rest Hps Hne)), ev_always. intros f E.
    cbn [params]. rewrite E0 in *. rewrite Hrp, E. now rewrite (void_conv_id _ Hnv).
Qed.

Lemma SN_base3 b c v : SNk (base_toks3 b c v).
Proof.
  unfold base_toks3, name_tok. apply SN_app; [apply SN_cvtoks|].
  destruct (b =? 0); apply SN_plain_tok; try reflexivity; constructor.
Qed.

Lemma SN_join l : Forall SNk l -> SNk (join_comma l).
Proof.
  induction 1 as [|x l Hx Hl IH]; [constructor|].
  destruct l as [|y l']; [exact Hx|]. rewrite join_cons2.
  apply SN_app; [exact Hx|]. apply SN_plain_tok; [reflexivity|exact IH].
Qed.

Lemma SN_decl t nm : Forall layer_ok (layers t) -> SNk (decl_toks t nm).
Proof.
  intros Hok. destruct (decl_view t nm) as (b & c & v & -> & _).
  apply SN_app; [apply SN_base3|]. apply SN_P; [exact Hok|apply SN_name].
Qed.

Lemma fn_layer_ok ps va :
  Forall (fun p => (legalL KB (layers (fst p)) = true /\ Forall layer_ok (layers (fst p))) /\ obj_ty (fst p)) ps ->
  layer_ok (LFn ps va).
Proof.
  intros H. split.
  - unfold params_toks. apply SN_join, Forall_app. split; [|destruct va; repeat constructor].
    apply Forall_map. revert H. apply Forall_impl. intros [t nm] [[_ Hok] _]. now apply SN_decl.
  - intros rest. apply params_rt.
    + revert H. apply Forall_impl. intros [t nm] [[Hleg Hok] [Hk _]] rest' Hf. now apply param_of_layers.
    + revert H. apply Forall_impl. intros p [_ [_ Hv]]. exact Hv.
Qed.

Lemma okl_pfx k l : is_pfx l = true -> k <> KRef -> okl k l = true.
Proof. destruct k, l; try reflexivity; try discriminate; intros _ H; now elim H. Qed.

Lemma layers_snoc t l :
  legalL KB (layers t) = true /\ Forall layer_ok (layers t) -> okl (kind_of t) l = true -> layer_ok l ->
  legalL KB (layers t ++ [l]) = true /\ Forall layer_ok (layers t ++ [l]).
Proof.
  intros [Hleg Hok] Hk Hl. split.
  - rewrite legalL_app, Hleg, kind_layers. cbn [legalL]. now rewrite Hk.
  - apply Forall_app. split; [exact Hok|]. now constructor.
Qed.

(* the layers of a well-formed type satisfy the hypotheses of loop_layers; for the parameter lists this is
   the round trip of their parameters, hence the induction on the tree *)
Lemma wf_layers t : wf t -> legalL KB (layers t) = true /\ Forall layer_ok (layers t).
Proof.
  induction t as [b c v|t c v IH|t IH|t IH|t s IH|r ps va IH IHps] using ty_ind'; intros H.
  - split; [reflexivity|constructor].
  - destruct H as [H Hk]. apply layers_snoc; [now apply IH|now apply okl_pfx|exact I].
  - destruct H as [H Hk]. apply layers_snoc; [now apply IH|now apply okl_pfx|exact I].
  - destruct H as [H Hk]. apply layers_snoc; [now apply IH|now apply okl_pfx|exact I].
  - destruct H as (H & Hk & Hs). apply layers_snoc; [now apply IH| |exact Hs].
    destruct Hk as [-> | ->]; reflexivity.
  - apply wf_fn in H. destruct H as (H & Hk & Hps). apply layers_snoc; [now apply IH| |].
    + destruct Hk as [-> | ->]; reflexivity.
    + apply fn_layer_ok. rewrite Forall_forall in *. intros p Hin. destruct (Hps p Hin) as [Hwf Hobj].
      split; [exact (IHps p Hin Hwf)|exact Hobj].
Qed.

Lemma wf_view t nm : wf t -> exists b c v ls,
  decl_toks t nm = base_toks3 b c v ++ P ls (name_toks nm) /\ wrap (TBase b c v) ls = t /\
  legalL KB ls = true /\ Forall layer_ok ls /\ kind_end KB ls = kind_of t.
Proof.
  intros Hwf. destruct (decl_view t nm) as (b & c & v & Ed & Ew). destruct (wf_layers t Hwf) as [Hleg Hok].
  exists b, c, v, (layers t). repeat split; try assumption. apply kind_layers.
Qed.

Theorem var_roundtrip t n rest :
  wf t -> obj_ty t -> follow_ok rest = true ->
  ev (fun f => parse_var f (decl_toks t (Some n) ++ rest)) (DOk (n, t, rest)).
Proof.
  intros Hwf [Hk _] Hf. destruct (wf_view t (Some n) Hwf) as (b & c & v & ls & -> & <- & Hleg & Hok & Ek).
  rewrite <- Ek in Hk. rewrite <- app_assoc.
  apply (ev_with (var_tail_follow b c v ls n rest Hleg Hok Hk Hf)), ev_always. intros f E. unfold parse_var.
  now rewrite (parse_base_printed b c v ls (Some n)) by discriminate.
Qed.

Lemma var_tail_rt b c v t n rest :
  wf t -> obj_ty t -> base_of t = (b, c, v) -> follow_ok rest = true ->
  ev (fun f => var_tail f (TBase b c v) (D t [mkTk T_NAME n] false ++ rest)) (DOk (n, t, rest)).
Proof.
  intros Hwf [Hk _] Hb Hf. rewrite D_is_P. rewrite <- kind_layers in Hk. destruct (wf_layers t Hwf) as [Hleg Hok].
  pose proof (var_tail_follow b c v (layers t) n rest Hleg Hok Hk Hf) as H.
  now rewrite (wrap_layers t b c v Hb) in H.
Qed.

Lemma decl_list_rt b c v (ts : list (ty * N)) rest :
  ts <> [] ->
  Forall (fun p => wf (fst p) /\ obj_ty (fst p) /\ base_of (fst p) = (b, c, v)) ts ->
  ev (fun f => decl_list (length ts) f (TBase b c v)
                 (join_comma (map (fun p => D (fst p) [mkTk T_NAME (snd p)] false) ts) ++ ktok SEMI :: rest))
     (DOk (map (fun p => (snd p, fst p)) ts, rest)).
Proof.
  apply (sep_rt (fun n f => decl_list n f (TBase b c v))).
  intros [t n] k cm Y (Hwf & Hobj & Hb). cbn [fst snd] in *.
  assert (Hf : follow_ok (ktok (if cm then COMMA else SEMI) :: Y) = true) by now destruct cm.
  apply (ev_with (var_tail_rt b c v t n _ Hwf Hobj Hb Hf)), ev_always. intros f E.
  cbn [decl_list]. rewrite E. now destruct cm.
Qed.

(* `T d1, d2, ..., dn;` *)
Theorem decls_roundtrip b c v (ts : list (ty * N)) rest :
  ts <> [] ->
  Forall (fun p => wf (fst p) /\ obj_ty (fst p) /\ base_of (fst p) = (b, c, v)) ts ->
  ev (fun f => parse_decls (length ts) f
                 (base_toks3 b c v ++ join_comma (map (fun p => D (fst p) [mkTk T_NAME (snd p)] false) ts) ++ ktok SEMI :: rest))
     (DOk (map (fun p => (snd p, fst p)) ts, rest)).
Proof.
  intros Hne Hall.
  apply (ev_with (decl_list_rt b c v ts rest Hne Hall)), ev_always. intros f. unfold parse_decls.
  destruct ts as [|[t n] q]; [contradiction|]. cbn [map fst snd]. rewrite join_comma_app, D_is_P.
  now rewrite (parse_base_printed b c v _ (Some n)) by discriminate.
Qed.

Theorem param_roundtrip t nm rest :
  wf t -> kind_of t <> KFn -> follow_ok rest = true ->
  ev (fun f => param f (decl_toks t nm ++ rest)) (DOk ((t, nm), rest)).
Proof.
  intros Hwf Hk Hf. destruct (wf_layers t Hwf) as [Hleg Hok]. now apply param_of_layers.
Qed.

Theorem params_roundtrip ps va rest :
  Forall (fun p => wf (fst p) /\ obj_ty (fst p)) ps ->
  ev (fun f => params f (params_toks ps va ++ ktok RP :: rest)) (DOk (ps, va, rest)).
Proof.
  intros H. apply (fn_layer_ok ps va). revert H. apply Forall_impl. intros p [Hwf Ho]. split; [now apply wf_layers|exact Ho].
Qed.

(* non-vacuity: int ( * const ( & x ) [ 3 ] ) ( const Foo a , ... ), a reference to an
   array of const pointers to functions *)
Example ex_ty : ty :=
  TRef (TArr (TPtr (TFn (TBase 5 false false) [(TBase 6 true false, Some 7)] true) true false) [mkTk 3 9]).
Example ex_wf : wf ex_ty /\ obj_ty ex_ty.
Proof.
  cbn. repeat split; try discriminate; auto.
  apply SN_plain_tok; [reflexivity|constructor].
Qed.
Example ex_runs :
  parse_var 40 (decl_toks ex_ty (Some 1) ++ [ktok SEMI]) = DOk (1, ex_ty, [ktok SEMI]).
Proof. vm_compute. reflexivity. Qed.

Lemma fn_head_layers b c v ls ps va n rest :
  legalL KB (ls ++ [LFn ps va]) = true -> Forall layer_ok (ls ++ [LFn ps va]) ->
  (kind_end KB ls = KB \/ kind_end KB ls = KRef) -> nolb rest = true ->
  ev (fun f => cvptr f (TBase b c v) (P (ls ++ [LFn ps va]) [mkTk T_NAME n] ++ rest))
     (DOk (wrap (TBase b c v) ls, mkTk T_NAME n :: ktok LP :: params_toks ps va ++ ktok RP :: rest)) /\
  is_fn (wrap (TBase b c v) ls) = false /\
  ev (fun f => params f (params_toks ps va ++ ktok RP :: rest)) (DOk (ps, va, rest)).
Proof.
  intros Hleg Hok Hk Hnl. pose proof (ends_pfx_of_kind KB ls Hk) as He. split; [|split].
  - replace (mkTk T_NAME n :: ktok LP :: params_toks ps va ++ ktok RP :: rest)
      with (P [LFn ps va] [mkTk T_NAME n] ++ rest)
      by (cbn [P starts_pfx paren app]; now rewrite <- app_assoc).
    apply (loop_split false ls [LFn ps va]); try assumption; try reflexivity.
    apply SN_plain_tok; [reflexivity|constructor].
  - now apply wrap_ends_pfx.
  - apply Forall_app in Hok as [_ Hok]. inversion Hok as [|? ? Hfn _]; subst. exact (proj2 Hfn rest).
Qed.

Theorem fn_roundtrip rt ps va n rest :
  wf (TFn rt ps va) -> nolb rest = true ->
  ev (fun f => fn_decl f (decl_toks (TFn rt ps va) (Some n) ++ rest)) (DOk (n, rt, ps, va, rest)).
Proof.
  intros Hwf Hnl.
  destruct (wf_layers _ Hwf) as [Hleg Hok].
  destruct (decl_view (TFn rt ps va) (Some n)) as (b & c & v & Ed & Ew).
  cbn [layers name_toks] in *. rewrite wrap_app in Ew. injection Ew as Ew.
  apply wf_fn in Hwf. destruct Hwf as (_ & Hkr & _). rewrite <- kind_layers in Hkr.
  destruct (fn_head_layers b c v _ ps va n rest Hleg Hok Hkr Hnl) as (H1 & Hnf & H2). rewrite Ew in H1, Hnf.
  apply (ev_with H1), (ev_with H2), ev_always. intros f E2 E1. unfold fn_decl.
  rewrite Ed, <- app_assoc, (parse_base_printed b c v _ (Some n)) by discriminate. cbn [name_toks]. rewrite E1, Hnf.
  isc. cbn [kval]. now rewrite E2.
Qed.

Theorem alias_roundtrip t rest :
  wf t -> kind_of t <> KFn -> follow_ok rest = true ->
  ev (fun f => alias_type f (decl_toks t None ++ rest)) (DOk (t, rest)).
Proof.
  intros Hwf Hk Hf. destruct (wf_view t None Hwf) as (b & c & v & ls & -> & <- & Hleg & Hok & Ek).
  rewrite <- Ek in Hk. rewrite <- app_assoc. cbn [name_toks].
  destruct (declarator_arr false b c v ls None rest Hleg Hok Hk (follow_stops _ Hf) eq_refl (follow_nolb _ Hf))
    as (d & R & H1 & Hnf & HR).
  cbn [name_toks app] in H1.
  pose proof (parse_base_printed b c v ls None rest (fun _ => follow_nocv _ Hf)) as Hpb. cbn [name_toks] in Hpb.
  apply (ev_with H1), (ev_with (field_arr _ _ _ _ HR (follow_nolb _ Hf))), ev_always. intros f E2 E1.
  unfold alias_type. now rewrite Hpb, E1, Hnf.
Qed.
