(* Hand-written mirror of CxxParser._parse_enum_decl (entered with the token
   behind the enum's name: ':' or '{') together with the ';' path of
   _finish_class_or_enum: an optional enum-base `: type` read by
   _parse_pqname(fund_ok) (Parse/PQName.v; class keys are not allowed there),
   then either ';' -- an opaque declaration with base -- or the enumerator
   list (Parse/EnumList.v) and the closing ';'.  Declarators behind the '}'
   (`enum E { } a, *b;`), a GNU attribute there and typedef'd enums are outside
   this model (code 4).
   Tied to the code by the differential run of harness/props/c01.py (the real
   _parse_enum_decl on the same token lists) and the digest pin of
   Gen/PinsC01.v. *)
From Coq Require Import NArith List Bool.
Import ListNotations.
From CXV Require Import Gen.TokTy Gen.ParserTables Parse.Balanced Parse.Declarator Parse.DeclSpec Parse.Toolkit Parse.PQName Parse.EnumList.
Open Scope N_scope.

Definition COLON := T_LIT_58.

Inductive eres :=
| EFwd (base : pq)                                      (* enum E : base; *)
| EDef (base : option pq) (items : list enumerator).    (* enum E [: base] { ... }; *)

Definition enum_body (is_typedef : bool) (base : option pq) (r : list tk) : dres (eres * list tk) :=
  match enum_list (S (length r)) [] r with
  | DErr e => DErr e
  | DOk (items, r1) =>
      match r1 with
      | a :: r2 =>
          if is T___attribute__ a then DErr 4
          else if negb is_typedef && is SEMI a then DOk (EDef base items, r2)
          else DErr 4                                   (* declarators of the enum type *)
      | [] => DErr 2
      end
  end.

Definition enum_decl (is_typedef : bool) (toks : list tk) : dres (eres * list tk) :=
  match toks with
  | [] => DErr 2
  | t :: r =>
      if is COLON t then
        match r with
        | [] => DErr 2
        | b :: _ =>
            if memN (kty b) name_compound_start then DErr 1          (* compound_ok is off for an enum-base *)
            else
              match parse_pqname r with
              | DErr e => DErr e
              | DOk (q, r1) =>
                  match r1 with
                  | [] => DErr 2
                  | s :: r2 =>
                      if is SEMI s then (if is_typedef then DErr 1 else DOk (EFwd q, r2))
                      else if is LBRACE s then enum_body is_typedef (Some q) r2
                      else DErr 1
                  end
              end
        end
      else if is LBRACE t then enum_body is_typedef None r
      else DErr 1
  end.

Definition base_toks (p : option pname2) : list tk :=
  match p with Some p => ktok COLON :: pn2_toks p | None => [] end.

Definition base_ok (p : pname2) (rest : list tk) : Prop :=
  pn2_ok p rest /\ match p with PNames _ key _ _ _ => key = [] | PFund _ _ => True end.

Lemma enum_body_rt base items tc rest :
  Forall wenum_ok items ->
  enum_body false base (enum_body_toks items tc ++ ktok SEMI :: rest) = DOk (EDef base (map strip_e items), rest).
Proof.
  intros H1. unfold enum_body. rewrite (enum_list_whole items tc _ H1). isc. reflexivity.
Qed.

Lemma first_not_compound p rest : base_ok p rest ->
  match pn2_toks p ++ rest with
  | b :: _ => memN (kty b) name_compound_start = false
  | [] => False
  end.
Proof.
  intros [Hok Hk]. destruct p as [tn key root n q|tn ws]; cbn [pn2_toks].
  - subst key. cbn [map app]. destruct tn; cbn [app]; [reflexivity|]. destruct root; reflexivity.
  - destruct tn; cbn [app]; [reflexivity|].
    cbn [pn2_ok] in Hok. destruct Hok as [Hf _]. destruct ws as [|w r]; [discriminate|].
    cbn [map app kty ktok]. cbn [fund_ok] in Hf. apply andb_prop in Hf as [Hf _].
    (* no fundamental keyword is a class key: a fact about the two tables *)
    apply memN_In in Hf. apply negb_true_iff.
    exact (proj1 (forallb_forall (fun x => negb (memN x name_compound_start)) fundamentals) eq_refl w Hf).
Qed.

Lemma enum_decl_base td p X : base_ok p X ->
  enum_decl td (ktok COLON :: pn2_toks p ++ X) =
    match X with
    | [] => DErr 2
    | s :: r2 =>
        if is SEMI s then (if td then DErr 1 else DOk (EFwd (pn2_out p), r2))
        else if is LBRACE s then enum_body td (Some (pn2_out p)) r2
        else DErr 1
    end.
Proof.
  intros Hb. pose proof (first_not_compound p _ Hb) as Hc. destruct Hb as [Hok _].
  unfold enum_decl. isc.
  destruct (pn2_toks p ++ X) as [|b r] eqn:E; [contradiction|].
  rewrite Hc, <- E. now rewrite (pqname_roundtrip p _ Hok).
Qed.

(* `enum E : base;` *)
Theorem enum_forward_roundtrip p rest :
  base_ok p (ktok SEMI :: rest) ->
  enum_decl false (ktok COLON :: pn2_toks p ++ ktok SEMI :: rest) = DOk (EFwd (pn2_out p), rest).
Proof. intros Hb. now rewrite (enum_decl_base false p _ Hb). Qed.

(* `enum E [: base] { A, B [[x]] = e, } ;` *)
Theorem enum_definition_roundtrip p items tc rest :
  (match p with Some p => base_ok p (ktok LBRACE :: enum_body_toks items tc ++ ktok SEMI :: rest) | None => True end) ->
  Forall wenum_ok items ->
  enum_decl false (base_toks p ++ ktok LBRACE :: enum_body_toks items tc ++ ktok SEMI :: rest)
  = DOk (EDef (option_map pn2_out p) (map strip_e items), rest).
Proof.
  intros Hb H1. destruct p as [p|]; cbn [base_toks option_map app].
  - rewrite (enum_decl_base false p _ Hb). isc. now apply enum_body_rt.
  - unfold enum_decl. isc. now apply enum_body_rt.
Qed.

Example ex_enum_decl :
  enum_decl false (ktok COLON :: map ktok [T_unsigned; T_char] ++ [ktok SEMI]) = DOk (EFwd (mkPQ [] false [SFund [T_unsigned; T_char]]), [])
  /\ enum_decl false (ktok COLON :: [mkTk T_NAME 5; ktok LBRACE; mkTk T_NAME 1; ktok COMMA; mkTk T_NAME 2; ktok RBRACE; ktok SEMI])
     = DOk (EDef (Some (mkPQ [] false [SName 5])) [(1, None); (2, None)], []).
Proof. vm_compute. split; reflexivity. Qed.
