(* C09 -- Layout between tokens never changes the result.
   Model: Stream/TokBuf.v (hand-written mirror of TokenStream/LexerTokenStream;
   discard sets and UDL table regenerated), tied to the code by replaying the
   op trace of real parses (harness/streamcorr.py). *)
From Coq Require Import ZArith List Bool.
Import ListNotations.
From CXV Require Import Gen.TokTy Gen.Facts Stream.TokBuf Stream.TokBufThms.
Open Scope N_scope.

(* stream_refines_sig: EVERY client of the stream interface (any adaptive
   program over token / token_eof_ok, token_if*, token_peek_if, return_token(s)
   whose predicates see token type and text only) computes, on the concrete
   buffer machine with line-at-a-time fill, backslash-newline splicing, UDL
   fusion, discarding of layout tokens and push-back, exactly what it computes
   on the plain list of significant tokens. *)
Theorem stream_refines_sig :
  forall (R : Type) (c : client R) (st : ts) (r : R),
    run_c c st = Some r -> r = run_a c (abs st).
Proof. exact (@stream_refines_sig_lemma). Qed.

(* layout_invariance_partial: inputs whose significant tokens agree in type and text
   (whatever spaces, tabs, newlines, CR, non-doc comments, spliced
   continuations lie between them) are indistinguishable to every client;
   the parser is one such client (Gen/Facts: it touches the text only
   through these methods) *)
Theorem layout_invariance_partial :
  forall (R : Type) (c : client R) (st1 st2 : ts) (r1 r2 : R),
    abs st1 = abs st2 -> run_c c st1 = Some r1 -> run_c c st2 = Some r2 -> r1 = r2.
Proof. exact (@layout_invariance_lemma). Qed.

Theorem doxygen_scans_preserve_tokens :
  forall (st : ts),
    (forall o st', get_doxygen st = SOk o st' -> abs st' = abs st) /\
    (forall o st', get_doxygen_after st = (o, st') -> abs st' = abs st).
Proof.
  intros st. split.
  - intros o st'. exact (get_doxygen_abs st o st').
  - intros o st' H. exact (proj1 (proj2 (get_doxygen_after_spec_lemma st o st' H))).
Qed.

(* the parser IS a client in the sense above: AST facts re-established on every
   run by translate/gen_facts.py (self.lex.<method> is its only access path to
   the text, it never touches tokbuf/lexpos/lineno, never mutates a token,
   never branches on a location and stores one only into a state, reads NEWLINE
   tokens only in the pragma loop, and swaps self.lex only inside
   _parse_template_specialization) *)
Theorem parser_is_a_client :
  fact_parser_uses_only_stream_api && fact_parser_never_touches_stream_internals
  && fact_parser_never_mutates_tokens && fact_parser_never_branches_on_location
  && fact_location_only_stored_into_states && fact_toknl_only_in_pragma_directive
  && fact_lex_swapped_only_in_template_specialization = true.
Proof. exact (eq_refl true). Qed.

Print Assumptions stream_refines_sig.
Print Assumptions parser_is_a_client.
Print Assumptions layout_invariance_partial.
Print Assumptions doxygen_scans_preserve_tokens.

(* non-vacuity: "int  x ; // c NL" and "int/**/x;" have the same abstraction *)
Example c09_nonvacuous :
  abs (stream_of [102] [105; 110; 116; 32; 32; 120; 32; 59; 32; 47; 47; 32; 99; 10])
  = abs (stream_of [102] [105; 110; 116; 47; 42; 42; 47; 120; 59])
  /\ abs (stream_of [102] [105; 110; 116; 47; 42; 42; 47; 120; 59]) = [(T_int, [105; 110; 116]); (T_NAME, [120]); (T_LIT_59, [59])].
Proof. vm_compute. split; reflexivity. Qed.
