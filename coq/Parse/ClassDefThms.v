(* Theorems about Parse/ClassDef.v: class definitions nested to any depth, and translation units of namespaces,
   linkage blocks, classes and statements, read back as the tree that was written, every member under the access in
   force IN ITS OWN class at its position.  Both rest on one relation, [reads]: the loop delivers the items of one
   written statement and goes on behind it.  Every kind of statement is an instance; a block is one whenever its body
   is read whole ([reads_all]); the tree theorems are inductions over these instances. *)
From Coq Require Import NArith List Bool Lia PeanoNat.
Import ListNotations.
From CXV Require Import Gen.TokTy Gen.TopLoop Parse.Balanced Parse.Declarator Parse.DeclSpec Parse.DeclThms Parse.EnumList
  Parse.Specs Parse.DeclStmt Parse.MemberStmt Parse.BaseClause Parse.ClassEnum Parse.FinishClass Parse.Bodies Parse.ClassDef Parse.NsHeader Parse.Template.
Open Scope N_scope.

Inductive welem :=
| WAccess (kw : tk)                         (* public: / private: / protected: *)
| WEmpty
| WStmt (toks : list tk) (it : citem)       (* a member statement of the statement models *)
| WFwd (key name : N)                       (* class-key Name ; *)
| WOne (toks : list tk) (mk : N -> item)    (* any statement the loop reads in one step: using, enum, ... (abstract, see one_step) *)
| WClass (w : wclass)
with wclass :=
| mkWC (key name : N) (vs : list bool) (ws : list wbase) (elems : list welem).   (* class-key Name [final..] [: bases] { elems } ; *)

Definition bases_toks (ws : list wbase) : list tk :=
  match ws with [] => [] | _ => ktok T_LIT_58 :: join_comma (map wbase_toks ws) end.

Fixpoint welem_toks (e : welem) : list tk :=
  match e with
  | WAccess kw => [kw; ktok COLONb]
  | WEmpty => [ktok SEMI]
  | WStmt toks _ => toks
  | WFwd key name => [ktok key; mkTk T_NAME name; ktok SEMI]
  | WOne toks _ => toks
  | WClass (mkWC key name vs ws es) =>
      ktok key :: mkTk T_NAME name :: vs_toks vs ++ bases_toks ws ++ ktok LBRACE :: flat_map welem_toks es ++ [ktok RBRACE; ktok SEMI]
  end.

Fixpoint wclass_spec (acc : N) (w : wclass) : item :=
  match w with
  | mkWC key name vs ws es =>
      IClass acc (mkCD mods0 [key] name false false (existsb (fun f => f) vs) (existsb negb vs) (map (resolve (default_access [key])) ws)
                   ((fix go (a : N) (l : list welem) : list item :=
                       match l with
                       | [] => []
                       | WAccess kw :: r => go (kty kw) r
                       | WEmpty :: r => go a r
                       | WStmt _ it :: r => IC a it :: go a r
                       | WFwd k nm :: r => IFwd a [k] nm :: go a r
                       | WOne _ mk :: r => mk a :: go a r
                       | WClass w' :: r => wclass_spec a w' :: go a r
                       end) (default_access [key]) es)
                   FinNone)
  end.

Definition class_key (k : N) : Prop := k = T_class \/ k = T_struct \/ k = T_union.

Definition one_step (n : nat) (dt : list (N * N)) (cls dcls : N) (toks : list tk) (mk : N -> item) : Prop :=
  forall rest, exists f0, forall f, (f0 <= f)%nat -> forall k' acc aid,
    body (S k') n f dt (Some (cls, dcls)) acc aid (toks ++ rest)
    = match body k' n f dt (Some (cls, dcls)) acc aid rest with
      | DOk (l, a, rr) => DOk (mk acc :: l, a, rr)
      | DErr e => DErr e
      end.

Definition one_step_ns (n : nat) (dt : list (N * N)) (toks : list tk) (it : item) : Prop :=
  forall rest, exists f0, forall f, (f0 <= f)%nat -> forall k' aid,
    body (S k') n f dt None 0 aid (toks ++ rest)
    = match body k' n f dt None 0 aid rest with
      | DOk (l, a, rr) => DOk (it :: l, a, rr)
      | DErr e => DErr e
      end.

Fixpoint welem_ok (n : nat) (dt : list (N * N)) (cls dcls : N) (e : welem) {struct e} : Prop :=
  match e with
  | WAccess kw => assocN (kty kw) tu_table = Some H_process_access_specifier
  | WEmpty => True
  | WStmt toks it =>
      (exists t r, toks = t :: r /\ is_decl_head t) /\
      (forall rest, class_stmt_head false false (toks ++ rest) = CHNot) /\
      forall rest, ev (fun f => member_decl n f cls dcls (toks ++ rest)) (DOk (it, rest))
  | WFwd key _ => class_key key
  | WOne toks mk => one_step n dt cls dcls toks mk
  | WClass (mkWC key name vs ws es) =>
      class_key key /\ forallb access_ok ws = true /\ (match vs with f :: _ => f = true | [] => True end) /\
      (fix all (l : list welem) : Prop :=
         match l with [] => True | x :: r => welem_ok n dt name (dtor_of dt name) x /\ all r end) es
  end.

Fixpoint esize (e : welem) : nat :=
  match e with
  | WClass (mkWC _ _ _ _ es) => S (S ((fix sum (l : list welem) : nat := match l with [] => O | x :: r => (esize x + sum r)%nat end) es))
  | _ => 1%nat
  end.

(* the list functions that wclass_spec, welem_ok and esize carry inside them, under names; each is the inner fixpoint itself,
   so that the three equations below hold by computation *)
Definition welems_spec : N -> list welem -> list item :=
  fix go (a : N) (l : list welem) : list item :=
    match l with
    | [] => []
    | WAccess kw :: r => go (kty kw) r
    | WEmpty :: r => go a r
    | WStmt _ it :: r => IC a it :: go a r
    | WFwd k nm :: r => IFwd a [k] nm :: go a r
    | WOne _ mk :: r => mk a :: go a r
    | WClass w' :: r => wclass_spec a w' :: go a r
    end.
Definition welems_ok (n : nat) (dt : list (N * N)) (cls dcls : N) : list welem -> Prop :=
  fix all (l : list welem) : Prop := match l with [] => True | x :: r => welem_ok n dt cls dcls x /\ all r end.
Definition ssize : list welem -> nat :=
  fix sum (l : list welem) : nat := match l with [] => O | x :: r => (esize x + sum r)%nat end.

Lemma wclass_spec_eq acc key name vs ws es :
  wclass_spec acc (mkWC key name vs ws es)
  = IClass acc (mkCD mods0 [key] name false false (existsb (fun f => f) vs) (existsb negb vs) (map (resolve (default_access [key])) ws)
                  (welems_spec (default_access [key]) es) FinNone).
Proof. reflexivity. Qed.

Lemma welem_ok_class n dt cls dcls key name vs ws es :
  welem_ok n dt cls dcls (WClass (mkWC key name vs ws es))
  = (class_key key /\ forallb access_ok ws = true /\ (match vs with f :: _ => f = true | [] => True end) /\
     welems_ok n dt name (dtor_of dt name) es).
Proof. reflexivity. Qed.

Lemma esize_class key name vs ws es : esize (WClass (mkWC key name vs ws es)) = S (S (ssize es)).
Proof. reflexivity. Qed.

Lemma esize_pos e : (1 <= esize e)%nat.
Proof. destruct e as [| | | | |[? ? ? ? ?]]; cbn [esize]; lia. Qed.

Definition stmt_keys : list (list N) := [[T_class]; [T_struct]; [T_union]; [T_enum]; [T_enum; T_class]; [T_enum; T_struct]].

Lemma key_name_named m key name s r :
  (is T_DBL_COLON s || is T_LIT_60 s) = false ->
  key_name m key (mkTk T_NAME name :: s :: r) = DOk (m, key, Some name, s :: r).
Proof. intros H. unfold key_name, name_part. isc. cbn iota. now rewrite H. Qed.

Lemma ckey_loop_named key name s r :
  In key stmt_keys -> (is T_DBL_COLON s || is T_LIT_60 s) = false ->
  ckey_loop mods0 (map ktok key ++ mkTk T_NAME name :: s :: r) = Some (DOk (mods0, key, Some name, s :: r)).
Proof.
  intros Hk H. rewrite <- (key_name_named mods0 key name s r H).
  cbn [stmt_keys In] in Hk. repeat (destruct Hk as [<-|Hk]; [reflexivity|]). contradiction.
Qed.

Lemma class_key_stmt_key key : class_key key -> In [key] stmt_keys.
Proof. intros [-> | [-> | ->]]; cbn; tauto. Qed.

(* the class-statement head at `class-key Name s ...`, [s] being `final`, ':' or '{': _parse_class_decl is entered with [s] *)
Lemma class_stmt_head_named tmpl key name s r :
  class_key key -> s = ktok T_final \/ s = ktok T_LIT_58 \/ s = ktok LBRACE ->
  class_stmt_head false tmpl (ktok key :: mkTk T_NAME name :: s :: r)
  = match class_head (default_access [key]) (s :: r) with
    | DErr e => CHErr e
    | DOk (fi, ex, bs, r4) => CHDef mods0 [key] (Some name) fi ex bs r4
    end.
Proof.
  intros Hk Hs. unfold class_stmt_head.
  change (ktok key :: mkTk T_NAME name :: s :: r) with (map ktok [key] ++ mkTk T_NAME name :: s :: r).
  (* [s] continues neither the name (`::`, '<') nor the specifiers: the name loop and the specifier loop stop at it *)
  rewrite (ckey_loop_named [key] name s r (class_key_stmt_key key Hk)), spec_loop_stop
    by (destruct Hs as [-> | [-> | ->]]; reflexivity).
  assert (Hce : class_enum [key] mods0 tmpl false false (s :: r) = DOk (CEClass s, r)).
  { destruct Hk as [-> | [-> | ->]], Hs as [-> | [-> | ->]]; reflexivity. }
  now rewrite Hce.
Qed.

Lemma class_head_written (tmpl : bool) key name vs ws X :
  class_key key -> forallb access_ok ws = true -> (match vs with f :: _ => f = true | [] => True end) ->
  class_stmt_head false tmpl (ktok key :: mkTk T_NAME name :: vs_toks vs ++ bases_toks ws ++ ktok LBRACE :: X)
  = CHDef mods0 [key] (Some name) (existsb (fun f => f) vs) (existsb negb vs) (map (resolve (default_access [key])) ws) X.
Proof.
  intros Hk Hws Hvs.
  pose proof (class_head_roundtrip (default_access [key]) vs ws X Hws Hvs) as Hh. fold (bases_toks ws) in Hh.
  destruct vs as [|f q].
  - destruct ws; cbn [vs_toks map app bases_toks] in *; rewrite class_stmt_head_named by tauto; now rewrite Hh.
  - subst f. cbn [vs_toks map app] in *. rewrite class_stmt_head_named by tauto. now rewrite Hh.
Qed.

Lemma class_fwd_written key name X :
  class_key key ->
  class_stmt_head false false (ktok key :: mkTk T_NAME name :: ktok SEMI :: X) = CHFwd mods0 [key] name X.
Proof. intros [E|[E|E]]; subst key; reflexivity. Qed.

Lemma class_key_decl_head key : class_key key -> is_decl_head (ktok key).
Proof. intros [E|[E|E]]; subst key; reflexivity. Qed.

(* One step of the loop, in either scope.  [ctx] is None at namespace scope and the class in a class body; what the loop
   does with a statement differs between the two only in the access it reports ([acc_of]) and in the enclosing class it hands
   to _finish_class_or_enum ([encl_of]).  A step equation leaves on its right-hand side whatever the step waits for (the head
   of a class statement, a header reader) and is proved by conversion, which follows only the branch taken.  Where the head
   token is a variable (body_step_decl, reads_all_nil, reads_all_access) the loop has to be unfolded into the goal, and the
   goal closes at once: every rewrite under the unfolded loop, and Qed after it, checks the whole of it again. *)

Definition in_class_of (ctx : option (N * N)) : bool := match ctx with Some _ => true | None => false end.
Definition acc_of (ctx : option (N * N)) (acc : N) : N := if in_class_of ctx then acc else 0.
Definition encl_of (ctx : option (N * N)) : N * N := match ctx with Some p => p | None => (anon_base, anon_base) end.

Definition pushl (its : list item) (r : dres (list item * N * list tk)) : dres (list item * N * list tk) :=
  match r with DOk (l, a, rr) => DOk (its ++ l, a, rr) | DErr e => DErr e end.

Lemma pushl_nil r : pushl [] r = r.
Proof. destruct r as [[[l a] rr]|e]; reflexivity. Qed.

Definition tail_ok (T : list tk) : Prop := match T with [] => True | t :: _ => stop_tok t end.

(* class_stmt of [body], word for word, with [body k] for the recursive calls: what the loop does with a statement that
   begins like a class statement -- behind template headers [hs], if any -- and [otherwise] if it is none *)
Definition class_stmt_at (k n f : nat) dt ctx (acc aid : N) (hs : list (list tparam)) (td : bool) (toks : list tk)
    (otherwise : dres (list item * N * list tk)) : dres (list item * N * list tk) :=
  let cont := fun (aid' : N) (it : item) (r' : list tk) => pushl [it] (body k n f dt ctx acc aid' r') in
  let encl := encl_of ctx in
  let in_class := in_class_of ctx in
  let acc_out := acc_of ctx acc in
  let wrap := fun (it : item) => match hs with [] => it | _ => ITemplate hs it end in
  match class_stmt_head td (match hs with [] => false | _ => true end) toks with
  | CHNot => otherwise
  | CHErr e => DErr e
  | CHFwd m key nm r => cont aid (wrap (IFwd acc_out key nm)) r
  | CHEnumFwd m key nm q r =>
      match nm with
      | Some x => cont aid (IEnumFwd acc_out key x q) r
      | None => cont (aid + 1) (IEnumFwd acc_out key (anon_base + aid + 1) q) r
      end
  | CHEnum m key nm b items r =>
      let '(bn, anon, aid1) := match nm with Some x => (x, false, aid) | None => (anon_base + aid + 1, true, aid + 1) end in
      match finish_class n f in_class td anon false m (fst encl) (snd encl) bn (m_const m) (m_volatile m) r with
      | DErr e => DErr e
      | DOk (fin, r3) => cont aid1 (IEnum acc_out m key bn anon td b items fin) r3
      end
  | CHDef m key nm fi ex bs r =>
      let '(bn, anon, aid1) := match nm with Some x => (x, false, aid) | None => (anon_base + aid + 1, true, aid + 1) end in
      let inner := match nm with Some x => (x, dtor_of dt x) | None => (anon_base, anon_base) end in
      match body k n f dt (Some inner) (default_access key) aid1 r with
      | DErr e => DErr e
      | DOk (members, aid2, r1) =>
          match r1 with
          | cb :: r2 =>
              if is RBRACE cb then
                match finish_class n f in_class td anon (negb (key_is T_class key)) m (fst encl) (snd encl) bn (m_const m) (m_volatile m) r2 with
                | DErr e => DErr e
                | DOk (fin, r3) => cont aid2 (wrap (IClass acc_out (mkCD m key bn anon td fi ex bs members fin))) r3
                end
              else DErr 3
          | [] => DErr 4
          end
      end
  end.

Lemma body_step_decl k n f dt ctx acc aid t r :
  is_decl_head t ->
  body (S k) n f dt ctx acc aid (t :: r)
  = class_stmt_at k n f dt ctx acc aid [] false (t :: r)
      match ctx with
      | Some (cls, dcls) =>
          match member_decl n f cls dcls (t :: r) with
          | DErr e => DErr e
          | DOk (it, r') => pushl [IC acc it] (body k n f dt ctx acc aid r')
          end
      | None =>
          match ns_decl n f (t :: r) with
          | DErr e => DErr e
          | DOk (it, r') => pushl [INs it] (body k n f dt ctx acc aid r')
          end
      end.
Proof. intros Hh. cbn [body]. rewrite Hh. reflexivity. Qed.

(* a class statement behind the tokens [pre] -- nothing, or template headers [hs] -- is read as one *)
Definition class_behind (n : nat) dt ctx acc (pre : list tk) (hs : list (list tparam)) : Prop :=
  forall key R, class_key key -> eventually (fun f => forall k aid, exists o,
    body (S k) n f dt ctx acc aid (pre ++ ktok key :: R) = class_stmt_at k n f dt ctx acc aid hs false (ktok key :: R) o).

Lemma class_behind_nothing n dt ctx acc : class_behind n dt ctx acc [] [].
Proof.
  intros key R Hkey. apply ev_always. intros f k aid. eexists.
  exact (body_step_decl k n f dt ctx acc aid (ktok key) R (class_key_decl_head key Hkey)).
Qed.

Definition block_at (k n f : nat) dt (aid : N) (mk : list item -> item) (X : list tk) : dres (list item * N * list tk) :=
  match body k n f dt None 0 aid X with
  | DErr e => DErr e
  | DOk (members, aid2, r1) =>
      match r1 with
      | cb :: r2 => if is RBRACE cb then pushl [mk members] (body k n f dt None 0 aid2 r2) else DErr 3
      | [] => DErr 4
      end
  end.

Definition opens_block (hd : list tk) (mk : list item -> item) : Prop :=
  forall k n f dt aid X, body (S k) n f dt None 0 aid (hd ++ ktok LBRACE :: X) = block_at k n f dt aid mk X.

Lemma body_step_namespace k n f dt aid r :
  body (S k) n f dt None 0 aid (ktok T_namespace :: r)
  = match ns_header false r with
    | DErr e => DErr e
    | DOk (NsDef names, r1) => block_at k n f dt aid (INamespace false names) r1
    | DOk (NsAlias a names, r1) => pushl [IAlias a names] (body k n f dt None 0 aid r1)
    end.
Proof. reflexivity. Qed.

Lemma namespace_opens names : opens_block (ktok T_namespace :: path_toks names) (INamespace false names).
Proof. intros k n f dt aid X. cbn [app]. now rewrite body_step_namespace, ns_definition_roundtrip. Qed.

(* with the tokens concrete, the translated handler of `extern` runs by conversion *)
Lemma extern_opens l : kty l = T_STRING_LITERAL -> opens_block [ktok T_extern; l] (IExtern (kval l)).
Proof. intros Hl k n f dt aid X. rewrite (tk_eta l _ Hl). reflexivity. Qed.

(* What the loop reads.  [reads]: one statement -- at access [acc], with a statement budget above [sz], the loop delivers
   [its] and goes on behind it.  [reads_all]: a whole body up to a closing brace or the end of input.  Member statements,
   forward declarations, using / enum statements, nested classes, namespaces and linkage blocks are instances of the first;
   the tree theorems are the second. *)

Definition reads (n : nat) dt ctx (acc : N) (sz : nat) (toks : list tk) (its : list item) : Prop :=
  forall rest, eventually (fun f => forall k aid, (sz <= k)%nat ->
    body (S k) n f dt ctx acc aid (toks ++ rest) = pushl its (body k n f dt ctx acc aid rest)).

Definition reads_all (n : nat) dt ctx (acc : N) (sz : nat) (toks : list tk) (its : list item) : Prop :=
  forall T, tail_ok T -> eventually (fun f => forall k aid, (sz < k)%nat ->
    body k n f dt ctx acc aid (toks ++ T) = DOk (its, aid, T)).

Lemma reads_all_nil n dt ctx acc : reads_all n dt ctx acc 0 [] [].
Proof.
  intros T HT. apply ev_always. intros f [|k] aid Hk; [lia|]. destruct T as [|t r]; [reflexivity|].
  unfold tail_ok, stop_tok in HT. cbn [app body]. rewrite HT. reflexivity.
Qed.

Lemma reads_all_cons {n dt ctx acc s1 t1 i1 s2 t2 i2} :
  reads n dt ctx acc s1 t1 i1 -> reads_all n dt ctx acc s2 t2 i2 ->
  reads_all n dt ctx acc (S s1 + s2) (t1 ++ t2) (i1 ++ i2).
Proof.
  intros H1 H2 T HT. apply (ev_with (H1 (t2 ++ T))), (ev_with (H2 T HT)), ev_always.
  intros f E2 E1 [|k] aid Hk; [lia|].
  rewrite <- app_assoc, E1, E2 by lia. reflexivity.
Qed.

Lemma reads_all_access {n dt p acc kw s t i} :
  assocN (kty kw) tu_table = Some H_process_access_specifier ->
  reads_all n dt (Some p) (kty kw) s t i -> reads_all n dt (Some p) acc (S s) (kw :: ktok COLONb :: t) i.
Proof.
  intros Hkw H T HT. apply (ev_with (H T HT)), ev_always. intros f E [|k] aid Hk; [lia|].
  cbn [app body]. rewrite Hkw. destruct p. exact (E k aid ltac:(lia)).
Qed.

Lemma reads_single {n dt ctx acc s t i} : reads n dt ctx acc s t i -> reads_all n dt ctx acc (S s) t i.
Proof.
  intros H. pose proof (reads_all_cons H (reads_all_nil n dt ctx acc)) as H'.
  now rewrite !app_nil_r, Nat.add_0_r in H'.
Qed.

Lemma reads_weaken {n dt ctx acc s} s' {t i} : (s <= s')%nat -> reads n dt ctx acc s t i -> reads n dt ctx acc s' t i.
Proof. intros Hs H rest. apply (ev_with (H rest)), ev_always. intros f E k aid Hk. apply E; lia. Qed.

Lemma reads_empty {n dt ctx acc} : reads n dt ctx acc 0 [ktok SEMI] [].
Proof. intros rest. apply ev_always. intros f k aid _. symmetry. apply pushl_nil. Qed.

Lemma reads_fwd {n dt ctx acc key} name :
  class_key key -> reads n dt ctx acc 0 [ktok key; mkTk T_NAME name; ktok SEMI] [IFwd (acc_of ctx acc) [key] name].
Proof.
  intros Hk rest. apply ev_always. intros f k aid _.
  cbn [app]. rewrite (body_step_decl k n f dt ctx acc aid _ _ (class_key_decl_head key Hk)). unfold class_stmt_at.
  now rewrite (class_fwd_written key name rest Hk).
Qed.

Lemma reads_one {n dt cls dcls} acc {toks mk} : one_step n dt cls dcls toks mk -> reads n dt (Some (cls, dcls)) acc 0 toks [mk acc].
Proof. intros H rest. apply (ev_with (H rest)), ev_always. intros f E k aid _. apply E. Qed.

Lemma reads_one_ns {n dt toks it} : one_step_ns n dt toks it -> reads n dt None 0 0 toks [it].
Proof. intros H rest. apply (ev_with (H rest)), ev_always. intros f E k aid _. apply E. Qed.

(* one_step and one_step_ns are one statement, at the two scopes: the instances (Parse/ClassDefElems.v) that hold at
   both scopes are proved of this *)
Definition one_step_at (n : nat) dt ctx (toks : list tk) (mk : N -> item) : Prop :=
  forall rest, eventually (fun f => forall k acc aid,
    body (S k) n f dt ctx acc aid (toks ++ rest) = pushl [mk (acc_of ctx acc)] (body k n f dt ctx acc aid rest)).

Lemma one_step_at_ns n dt toks mk : one_step_at n dt None toks mk -> one_step_ns n dt toks (mk 0).
Proof. intros H rest. apply (ev_with (H rest)), ev_always. intros f E k aid. exact (E k 0 aid). Qed.

Lemma reads_member {n dt cls dcls} acc {toks it} :
  (exists t r, toks = t :: r /\ is_decl_head t) ->
  (forall rest, class_stmt_head false false (toks ++ rest) = CHNot) ->
  (forall rest, ev (fun f => member_decl n f cls dcls (toks ++ rest)) (DOk (it, rest))) ->
  reads n dt (Some (cls, dcls)) acc 0 toks [IC acc it].
Proof.
  intros (t & r & -> & Hh) Hnot Hdec rest. apply (ev_with (Hdec rest)), ev_always. intros f E k aid _.
  cbn [app] in *. rewrite (body_step_decl k n f dt _ acc aid t _ Hh). unfold class_stmt_at. now rewrite (Hnot rest), E.
Qed.

Lemma reads_decl {n} dt {toks it} :
  ns_stmt_ok n toks it -> (forall rest, class_stmt_head false false (toks ++ rest) = CHNot) ->
  reads n dt None 0 0 toks [INs it].
Proof.
  intros [(t & r & -> & Hh) Hdec] Hnot rest. apply (ev_with (Hdec rest)), ev_always. intros f E k aid _.
  cbn [app] in *. rewrite (body_step_decl k n f dt _ 0 aid t _ Hh). unfold class_stmt_at. now rewrite (Hnot rest), E.
Qed.

Lemma reads_class {n dt ctx acc pre hs key name vs ws s INNER members} :
  class_behind n dt ctx acc pre hs ->
  class_key key -> forallb access_ok ws = true -> (match vs with f :: _ => f = true | [] => True end) ->
  reads_all n dt (Some (name, dtor_of dt name)) (default_access [key]) s INNER members ->
  reads n dt ctx acc (S s)
    (pre ++ ktok key :: mkTk T_NAME name :: vs_toks vs ++ bases_toks ws ++ ktok LBRACE :: INNER ++ [ktok RBRACE; ktok SEMI])
    [match hs with [] => fun it => it | _ => ITemplate hs end
       (IClass (acc_of ctx acc) (mkCD mods0 [key] name false false (existsb (fun f => f) vs) (existsb negb vs)
                                   (map (resolve (default_access [key])) ws) members FinNone))].
Proof.
  intros Hpre Hkey Hws Hvs H rest.
  set (X := INNER ++ ktok RBRACE :: ktok SEMI :: rest).
  apply (ev_with (Hpre key (mkTk T_NAME name :: vs_toks vs ++ bases_toks ws ++ ktok LBRACE :: X) Hkey)),
        (ev_with (H (ktok RBRACE :: ktok SEMI :: rest) eq_refl)), ev_always.
  intros f E Hb k aid Hk.
  (* carry `++ rest` to the end, which gives the `pre ++ key :: Name :: .. ++ '{' :: X` of Hb: app_assoc stops at `(t :: l) ++ rest`
     and cbn pushes the app under the cons, one round for each segment that begins with a token (key, '{', '}') *)
  rewrite <- !app_assoc. cbn [app]. rewrite <- !app_assoc. cbn [app]. rewrite <- !app_assoc. cbn [app].
  fold X. destruct (Hb k aid) as [o ->]. unfold class_stmt_at. rewrite (class_head_written _ key name vs ws X Hkey Hws Hvs).
  unfold X. cbn iota beta. rewrite E by lia. isc. cbn iota.
  (* the class is named (finish_class's anon is false), so `};` leaves FinNone at either scope *)
  rewrite finish_semicolon, andb_false_r by reflexivity. now destruct hs.
Qed.

Lemma reads_block {n dt hd mk s INNER members} :
  opens_block hd mk -> reads_all n dt None 0 s INNER members ->
  reads n dt None 0 (S s) (hd ++ ktok LBRACE :: INNER ++ [ktok RBRACE]) [mk members].
Proof.
  intros Hb H rest. apply (ev_with (H (ktok RBRACE :: rest) eq_refl)), ev_always.
  intros f E k aid Hk. rewrite <- app_assoc. cbn [app]. rewrite <- app_assoc. cbn [app].
  rewrite Hb. unfold block_at. rewrite E by lia. reflexivity.
Qed.

Lemma welems_read n dt : forall m es cls dcls acc,
  (ssize es < m)%nat -> welems_ok n dt cls dcls es ->
  reads_all n dt (Some (cls, dcls)) acc (ssize es) (flat_map welem_toks es) (welems_spec acc es).
Proof.
  induction m as [|m IH]; intros es cls dcls acc Hm Hok; [lia|].
  destruct es as [|e q]; [apply reads_all_nil|]. destruct Hok as [He Hq].
  change (ssize (e :: q)) with (esize e + ssize q)%nat in Hm. pose proof (esize_pos e) as He1.
  assert (IHq : forall a, reads_all n dt (Some (cls, dcls)) a (ssize q) (flat_map welem_toks q) (welems_spec a q))
    by (intros a; apply IH; [lia|exact Hq]).
  destruct e as [kw| |toks it|key name|toks mk|[key name vs ws es']].
  - exact (reads_all_access He (IHq (kty kw))).
  - exact (reads_all_cons reads_empty (IHq acc)).
  - destruct He as (Hh & Hnot & Hdec).
    exact (reads_all_cons (reads_member acc Hh Hnot Hdec) (IHq acc)).
  - exact (reads_all_cons (reads_fwd name He) (IHq acc)).
  - exact (reads_all_cons (reads_one acc He) (IHq acc)).
  - rewrite welem_ok_class in He. destruct He as (Hkey & Hws & Hvs & Hin). rewrite esize_class in Hm.
    exact (reads_all_cons (reads_class (class_behind_nothing n dt _ acc) Hkey Hws Hvs (IH es' name (dtor_of dt name) _ ltac:(lia) Hin))
             (IHq acc)).
Qed.

Lemma reads_wclass n dt ctx acc cls dcls w :
  welem_ok n dt cls dcls (WClass w) ->
  reads n dt ctx acc (Nat.pred (esize (WClass w))) (welem_toks (WClass w)) [wclass_spec (acc_of ctx acc) w].
Proof.
  destruct w as [key name vs ws es]. rewrite welem_ok_class, wclass_spec_eq, esize_class. intros (Hkey & Hws & Hvs & Hin).
  exact (reads_class (class_behind_nothing n dt ctx acc) Hkey Hws Hvs (welems_read n dt _ es _ _ _ (le_n _) Hin)).
Qed.

(* a class definition at namespace scope, nested to any depth *)
Theorem class_def_tree n dt (w : wclass) rest :
  welem_ok n dt anon_base anon_base (WClass w) -> (match rest with [] => True | t :: _ => stop_tok t end) ->
  ev (fun f => body (S (S (esize (WClass w)))) n f dt None 0 0 (welem_toks (WClass w) ++ rest))
     (match wclass_spec 0 w with IClass a c => DOk ([IClass a c], 0, rest) | _ => DErr 3 end).
Proof.
  intros Hok Hrest. apply (ev_with (reads_single (reads_wclass n dt None 0 _ _ w Hok) rest Hrest)), ev_always.
  intros f E. rewrite (E _ 0) by lia. now destruct w.
Qed.

Lemma ckey_loop_kw k m X : spec_kw k = true -> no_string X = true -> ckey_loop m (ktok k :: X) = ckey_loop (mods_or m [k]) X.
Proof.
  intros Hk HX. destruct (spec_kw_not_name k Hk) as (N1 & N2 & _).
  pose proof (spec_kw_all (fun k => negb (is_class_key (ktok k) || is T_enum (ktok k))) eq_refl k Hk) as Hck.
  apply negb_true_iff, orb_false_elim in Hck as [Hck Hen].
  cbn [ckey_loop]. rewrite Hck, Hen, N1, N2. cbn [kty ktok]. rewrite (set_mod_kw k m Hk).
  destruct (is T_extern (ktok k)); [|reflexivity].
  now apply head_gate.
Qed.

Lemma specs_name_not_class pre b Y rest :
  forallb spec_kw pre = true -> class_stmt_head false false ((kw_toks pre ++ nm_tok b :: Y) ++ rest) = CHNot.
Proof.
  intros Hpre. unfold class_stmt_head. rewrite <- app_assoc. cbn [app].
  rewrite (kw_loop ckey_loop ckey_loop_kw pre mods0 _ Hpre); unfold nm_tok; destruct (b =? 0); reflexivity.
Qed.

Lemma member_stmt_is_welem dt cls dcls pre post b items last e :
  forallb spec_kw pre = true -> forallb spec_kw post = true -> has T_extern (pre ++ post) = false ->
  Forall mditem_ok items -> mditem_ok last -> mlast_ok last e ->
  is_decl_head (hd (nm_tok b) (kw_toks pre)) ->
  let m := apply_kws (pre ++ post) mods0 in
  let bt := TBase b (m_const m) (m_volatile m) in
  welem_ok (S (length items)) dt cls dcls
    (WStmt (kw_toks pre ++ nm_tok b :: kw_toks post ++ mitems_toks items last e)
           (CMembers m (map (mditem_entry bt) items ++ [mlast_entry bt last e]))).
Proof.
  intros Hpre Hpost Hex Hall Hlast Hle Hh m bt.
  destruct (member_stmt_is_elem cls dcls pre post b items last e Hpre Hpost Hex Hall Hlast Hle Hh) as [A B].
  cbn [welem_ok]. split; [exact A|]. split; [|exact B].
  intros rest. now apply specs_name_not_class.
Qed.

(* `struct Out { int a ; private : class In : Base { Foo b ; public : Foo c ; } ; int d ; struct Fw ; } ;`
   (ids: Out 5, In 6, Base 7, int 8, Foo 9, a 1, b 2, c 3, d 4, Fw 10): `d` is private -- the access of Out at that point, not the
   public of In's last specifier *)
Example nested_run :
  body 12 3 80 [] None 0 0
    ([ktok T_struct; mkTk T_NAME 5; ktok LBRACE; mkTk T_NAME 8; mkTk T_NAME 1; ktok SEMI; ktok T_private; ktok COLONb;
      ktok T_class; mkTk T_NAME 6; ktok T_LIT_58; mkTk T_NAME 7; ktok LBRACE; mkTk T_NAME 9; mkTk T_NAME 2; ktok SEMI;
      ktok T_public; ktok COLONb; mkTk T_NAME 9; mkTk T_NAME 3; ktok SEMI; ktok RBRACE; ktok SEMI;
      mkTk T_NAME 8; mkTk T_NAME 4; ktok SEMI; ktok T_struct; mkTk T_NAME 10; ktok SEMI; ktok RBRACE; ktok SEMI])
  = DOk ([IClass 0 (mkCD mods0 [T_struct] 5 false false false false []
            [IC T_public (CMembers mods0 [MField (Some 1) (TBase 8 false false) None None]);
             IClass T_private (mkCD mods0 [T_class] 6 false false false false [mkBase T_private 7 false false]
               [IC T_private (CMembers mods0 [MField (Some 2) (TBase 9 false false) None None]);
                IC T_public (CMembers mods0 [MField (Some 3) (TBase 9 false false) None None])] FinNone);
             IC T_private (CMembers mods0 [MField (Some 4) (TBase 8 false false) None None]);
             IFwd T_private [T_struct] 10] FinNone)], 0, []).
Proof. vm_compute. reflexivity. Qed.

Inductive nelem :=
| NEmpty
| NStmt (toks : list tk) (it : nitem)          (* a declaration statement of the statement models *)
| NClassE (w : wclass)
| NFwdE (key name : N)
| NOne (toks : list tk) (it : item)            (* any statement the loop reads in one step at namespace scope (abstract) *)
| NNs (names : list N) (elems : list nelem)    (* namespace a::b { elems }   (no names: the anonymous namespace) *)
| NExternB (l : tk) (elems : list nelem).      (* extern "C" { elems } *)

Fixpoint nelem_toks (e : nelem) : list tk :=
  match e with
  | NEmpty => [ktok SEMI]
  | NStmt toks _ => toks
  | NClassE w => welem_toks (WClass w)
  | NFwdE key name => [ktok key; mkTk T_NAME name; ktok SEMI]
  | NOne toks _ => toks
  | NNs names es => ktok T_namespace :: path_toks names ++ ktok LBRACE :: flat_map nelem_toks es ++ [ktok RBRACE]
  | NExternB l es => ktok T_extern :: l :: ktok LBRACE :: flat_map nelem_toks es ++ [ktok RBRACE]
  end.

Fixpoint nelem_spec (e : nelem) : list item :=
  match e with
  | NEmpty => []
  | NStmt _ it => [INs it]
  | NClassE w => [wclass_spec 0 w]
  | NFwdE key name => [IFwd 0 [key] name]
  | NOne _ it => [it]
  | NNs names es => [INamespace false names (flat_map nelem_spec es)]
  | NExternB l es => [IExtern (kval l) (flat_map nelem_spec es)]
  end.

Fixpoint nelem_ok (n : nat) (dt : list (N * N)) (e : nelem) {struct e} : Prop :=
  match e with
  | NEmpty => True
  | NStmt toks it => ns_stmt_ok n toks it /\ (forall rest, class_stmt_head false false (toks ++ rest) = CHNot)
  | NClassE w => welem_ok n dt anon_base anon_base (WClass w)
  | NFwdE key _ => class_key key
  | NOne toks it => one_step_ns n dt toks it
  | NNs _ es => (fix all (l : list nelem) : Prop := match l with [] => True | x :: r => nelem_ok n dt x /\ all r end) es
  | NExternB l es => kty l = T_STRING_LITERAL /\
                     (fix all (l : list nelem) : Prop := match l with [] => True | x :: r => nelem_ok n dt x /\ all r end) es
  end.
Fixpoint nelems_ok (n : nat) (dt : list (N * N)) (l : list nelem) : Prop :=
  match l with [] => True | x :: r => nelem_ok n dt x /\ nelems_ok n dt r end.

Fixpoint nsize (e : nelem) : nat :=
  match e with
  | NClassE w => S (S (esize (WClass w)))
  | NNs _ es | NExternB _ es => S (S ((fix sum (l : list nelem) : nat := match l with [] => O | x :: r => (nsize x + sum r)%nat end) es))
  | _ => 1%nat
  end.
Fixpoint nssize (l : list nelem) : nat := match l with [] => O | x :: r => (nsize x + nssize r)%nat end.

Lemma nall_ok n dt es :
  (fix all (l : list nelem) : Prop := match l with [] => True | x :: r => nelem_ok n dt x /\ all r end) es -> nelems_ok n dt es.
Proof. induction es as [|x r IH]; [intros; exact I|]. intros [A B]. split; [exact A|now apply IH]. Qed.

Lemma nsize_ns names es : nsize (NNs names es) = S (S (nssize es)).
Proof. reflexivity. Qed.
Lemma nsize_extern l es : nsize (NExternB l es) = S (S (nssize es)).
Proof. reflexivity. Qed.

Lemma nsize_pos e : (1 <= nsize e)%nat.
Proof. destruct e; cbn [nsize]; lia. Qed.

Lemma nelems_read n dt : forall m es,
  (nssize es < m)%nat -> nelems_ok n dt es ->
  reads_all n dt None 0 (nssize es) (flat_map nelem_toks es) (flat_map nelem_spec es).
Proof.
  induction m as [|m IH]; intros es Hm Hok; [lia|].
  destruct es as [|e q]; [apply reads_all_nil|]. destruct Hok as [He Hq].
  cbn [nssize] in Hm. pose proof (nsize_pos e) as He1. pose proof (IH q ltac:(lia) Hq) as IHq.
  destruct e as [|toks it|w|key name|toks it|names es'|l es']; cbn [nelem_ok] in He.
  - exact (reads_all_cons reads_empty IHq).
  - exact (reads_all_cons (reads_decl dt (proj1 He) (proj2 He)) IHq).
  - refine (reads_all_cons (reads_weaken (S (esize (WClass w))) _ (reads_wclass n dt None 0 _ _ w He)) IHq). lia.
  - exact (reads_all_cons (reads_fwd name He) IHq).
  - exact (reads_all_cons (reads_one_ns He) IHq).
  - rewrite nsize_ns in Hm.
    exact (reads_all_cons (reads_block (namespace_opens names) (IH es' ltac:(lia) (nall_ok n dt es' He))) IHq).
  - rewrite nsize_extern in Hm.
    exact (reads_all_cons (reads_block (extern_opens l (proj1 He)) (IH es' ltac:(lia) (nall_ok n dt es' (proj2 He)))) IHq).
Qed.

(* a whole translation unit: every statement is reported once, in order, in the scope it is written in *)
Theorem unit_tree n dt (es : list nelem) :
  nelems_ok n dt es ->
  ev (fun f => body (S (nssize es)) n f dt None 0 0 (flat_map nelem_toks es)) (DOk (flat_map nelem_spec es, 0, [])).
Proof.
  intros Hok. apply (ev_with (nelems_read n dt _ es (le_n _) Hok [] I)), ev_always.
  intros f E. rewrite <- (app_nil_r (flat_map nelem_toks es)). apply E. lia.
Qed.

(* parser-side compositionality: the unit A B reads as the items of A followed by the items of B *)
Corollary unit_concatenation n dt (A B : list nelem) :
  nelems_ok n dt A -> nelems_ok n dt B ->
  ev (fun f => body (S (nssize (A ++ B))) n f dt None 0 0 (flat_map nelem_toks A ++ flat_map nelem_toks B))
     (DOk (flat_map nelem_spec A ++ flat_map nelem_spec B, 0, [])).
Proof.
  intros HA HB.
  assert (Hab : nelems_ok n dt (A ++ B)).
  { clear - HA HB. induction A as [|x r IH]; [exact HB|]. destruct HA as [H1 H2]. split; [exact H1|now apply IH]. }
  pose proof (unit_tree n dt (A ++ B) Hab) as H. now rewrite !flat_map_app in H.
Qed.

Lemma decl_stmt_is_nelem dt pre post b items last le :
  forallb spec_kw pre = true -> forallb spec_kw post = true ->
  has T_explicit (pre ++ post) = false -> has T_virtual (pre ++ post) = false -> has T_mutable (pre ++ post) = false ->
  Forall ditem_ok items -> ditem_ok last -> last_ok last le ->
  is_decl_head (hd (nm_tok b) (kw_toks pre)) ->
  let m := apply_kws (pre ++ post) mods0 in
  let bt := TBase b (m_const m) (m_volatile m) in
  nelem_ok (S (length items)) dt
    (NStmt (kw_toks pre ++ nm_tok b :: kw_toks post ++ items_toks items last le)
           (NDecls m (map (ditem_entry bt) items ++ [last_entry bt last le]))).
Proof.
  intros Hpre Hpost Hex Hvi Hmu Hall Hlast Hle Hh m bt. cbn [nelem_ok]. split.
  - exact (decl_stmt_is_stmt pre post b items last le Hpre Hpost Hex Hvi Hmu Hall Hlast Hle Hh).
  - intros rest. now apply specs_name_not_class.
Qed.

(* `namespace a::b { int x ; extern "C" { struct S { int y ; } ; } } int z ;`   (ids: a 1, b 2, int 8, x 3, "C" 4, S 5, y 6, z 7) *)
Example unit_run :
  body 12 3 80 [] None 0 0
    ([ktok T_namespace; mkTk T_NAME 1; ktok T_DBL_COLON; mkTk T_NAME 2; ktok LBRACE; mkTk T_NAME 8; mkTk T_NAME 3; ktok SEMI;
      ktok T_extern; mkTk T_STRING_LITERAL 4; ktok LBRACE; ktok T_struct; mkTk T_NAME 5; ktok LBRACE; mkTk T_NAME 8; mkTk T_NAME 6; ktok SEMI;
      ktok RBRACE; ktok SEMI; ktok RBRACE; ktok RBRACE; mkTk T_NAME 8; mkTk T_NAME 7; ktok SEMI])
  = DOk ([INamespace false [1; 2]
            [INs (NDecls mods0 [EVar 3 (TBase 8 false false) None]);
             IExtern 4 [IClass 0 (mkCD mods0 [T_struct] 5 false false false false []
                                    [IC T_public (CMembers mods0 [MField (Some 6) (TBase 8 false false) None None])] FinNone)]];
          INs (NDecls mods0 [EVar 7 (TBase 8 false false) None])], 0, []).
Proof. vm_compute. reflexivity. Qed.
