(* What a successful match of Base/Regex.v's matcher has consumed: a text that
   is [matched] by the regex (characters it may contain, starting with a
   possible first character, empty only if the regex is nullable), in front of
   the text its continuation accepted (rmatch_matched; rmatch_sound and
   match_prefix_sound are its corollaries).  only_char_mayc is a second induction
   on the regex.  The lexer theorems use match_prefix_sound and only_char_mayc. *)
From Coq Require Import NArith List Bool Lia.
Import ListNotations.
From CXV Require Import Base.Regex.
Open Scope N_scope.

Definition msplit {A} (r : rx) (s : list N) (k : list N -> option A) (x : A) : Prop :=
  exists w s', s = w ++ s' /\ k s' = Some x /\
    Forall (fun c => mayc r c = true) w /\ (nullable r = false -> w <> []).

(* first-character analysis: a non-empty match of r starts with a c such that [firstc r c] *)
Fixpoint firstc (r : rx) (c : N) : bool :=
  match r with
  | Eps | NotAhead _ | AtEnd => false
  | Chr neg l => chr_ok neg l c
  | Cat a b => firstc a c || (nullable a && firstc b c)
  | Alt a b => firstc a c || firstc b c
  | Star a => firstc a c
  end.

Definition matched (r : rx) (w : list N) : Prop :=
  Forall (fun c => mayc r c = true) w /\
  match w with [] => nullable r = true | c :: _ => firstc r c = true end.

Lemma matched_nil r : nullable r = true -> matched r [].
Proof. intros H. split; [constructor|exact H]. Qed.

Lemma matched_alt_l a b w : matched a w -> matched (Alt a b) w.
Proof.
  intros [F H]. split.
  - eapply Forall_impl; [|exact F]. cbn [mayc]. intros c ->. reflexivity.
  - cbn [nullable firstc]. destruct w; now rewrite H.
Qed.

Lemma matched_alt_r a b w : matched b w -> matched (Alt a b) w.
Proof.
  intros [F H]. split.
  - eapply Forall_impl; [|exact F]. cbn [mayc]. intros c ->. apply orb_true_r.
  - cbn [nullable firstc]. destruct w; rewrite H; apply orb_true_r.
Qed.

Lemma matched_cat a b w1 w2 : matched a w1 -> matched b w2 -> matched (Cat a b) (w1 ++ w2).
Proof.
  intros [F1 H1] [F2 H2]. split.
  - apply Forall_app. split.
    + eapply Forall_impl; [|exact F1]. cbn [mayc]. intros c ->. reflexivity.
    + eapply Forall_impl; [|exact F2]. cbn [mayc]. intros c ->. apply orb_true_r.
  - cbn [nullable firstc]. destruct w1 as [|c w1]; cbn [app]; rewrite H1; [|reflexivity].
    destruct w2; rewrite H2; [reflexivity|apply orb_true_r].
Qed.

Lemma matched_star r w1 w2 : matched r w1 -> matched (Star r) w2 -> matched (Star r) (w1 ++ w2).
Proof.
  intros [F1 H1] [F2 H2]. split.
  - apply Forall_app. split; assumption.
  - destruct w1; [exact H2|exact H1].
Qed.

Theorem rmatch_matched : forall r A s (k : list N -> option A) x,
  rmatch r s k = Some x -> exists w s', s = w ++ s' /\ k s' = Some x /\ matched r w.
Proof.
  induction r as [|neg l|a IHa b IHb|a IHa b IHb|body IH|a IHa|]; intros A s k x H; cbn [rmatch] in H.
  - exists [], s. auto using matched_nil.
  - destruct s as [|c s']; [discriminate|]. destruct (chr_ok neg l c) eqn:E; [|discriminate].
    exists [c], s'. repeat split; auto.
  - apply IHa in H as (w1 & s1 & -> & H1 & M1).
    apply IHb in H1 as (w2 & s2 & -> & H2 & M2).
    exists (w1 ++ w2), s2. rewrite app_assoc. auto using matched_cat.
  - destruct (rmatch a s k) eqn:Ea.
    + inversion H; subst. apply IHa in Ea as (w & s' & -> & H1 & M).
      exists w, s'. auto using matched_alt_l.
    + apply IHb in H as (w & s' & -> & H1 & M).
      exists w, s'. auto using matched_alt_r.
  - (* for any fuel: the bound [length s] plays no part here *)
    remember (length s) as n eqn:Hn. clear Hn. revert s H.
    induction n as [|n IHn]; intros s H.
    + exists [], s. auto using matched_nil.
    + match type of H with match ?m with _ => _ end = _ => destruct m eqn:Eb end.
      * inversion H; subst.
        apply IH in Eb as (w1 & s1 & -> & H1 & M1).
        apply IHn in H1 as (w2 & s2 & -> & H2 & M2).
        exists (w1 ++ w2), s2. rewrite app_assoc. auto using matched_star.
      * exists [], s. auto using matched_nil.
  - destruct (rmatch a s (fun _ => Some tt)); [discriminate|].
    exists [], s. auto using matched_nil.
  - destruct (at_end s); [|discriminate].
    exists [], s. auto using matched_nil.
Qed.

(* a successful match consumed a prefix [w] made of characters the regex may
   contain, non-empty when the regex is not nullable, and the continuation
   succeeded on the rest *)
Theorem rmatch_sound : forall r A s (k : list N -> option A) x,
  rmatch r s k = Some x -> msplit r s k x.
Proof.
  intros r A s k x H. apply rmatch_matched in H as (w & s' & Hs & Hk & F & Hw).
  exists w, s'. repeat split; auto. intros Hn ->. congruence.
Qed.

Corollary match_prefix_sound r s rest :
  match_prefix r s = Some rest -> exists w, s = w ++ rest /\ matched r w.
Proof.
  intros H. apply rmatch_matched in H as (w & s' & -> & Hk & M).
  inversion Hk; subst. now exists w.
Qed.

Lemma only_char_mayc r c : only_char r c = true -> forall d, mayc r d = true -> d = c.
Proof.
  induction r as [|neg l|a IHa b IHb|a IHa b IHb|body IH|a IHa|]; cbn [only_char mayc]; intros H d Hd;
    try discriminate.
  - apply andb_prop in H as [Hneg Hall]. destruct neg; [discriminate|]. cbn [chr_ok] in Hd.
    clear Hneg. induction l as [|[lo hi] l IHl]; cbn [in_ranges] in Hd; [discriminate|].
    cbn [forallb fst snd] in Hall. apply andb_prop in Hall as [H1 H2].
    apply andb_prop in H1 as [Hlo Hhi]. apply N.eqb_eq in Hlo, Hhi. subst.
    destruct ((c <=? d) && (d <=? c)) eqn:E; [|now apply IHl].
    apply andb_prop in E as [E1 E2]. apply N.leb_le in E1, E2. lia.
  - apply andb_prop in H as [H1 H2]. apply orb_prop in Hd as [Hd|Hd]; auto.
  - apply andb_prop in H as [H1 H2]. apply orb_prop in Hd as [Hd|Hd]; auto.
  - auto.
Qed.
