(* The lexer on a known prefix of its input: which tokens come out of the
   prefix whatever follows it (Base/SymTail.v lifted to the rule list, to one
   iteration of the loop and to a run of iterations). *)
From Coq Require Import NArith List Lia.
Import ListNotations.
From CXV Require Import Gen.TokTy Base.Regex Base.SymTail Gen.LexRules Lex.PlyLoop Lex.PlyLoopFacts Lex.LexThms.
Open Scope N_scope.

Fixpoint sfirst (rs : list (rx * action)) (s : list N) : tri (action * list N) :=
  match rs with
  | [] => No
  | (r, a) :: rs' =>
      match smatch r s (fun s' => Yes s') with
      | Yes rest => Yes (a, rest)
      | No => sfirst rs' s
      | Dunno => Dunno
      end
  end.

Lemma sfirst_sound t : forall rs s,
  agrees (fun ar => (fst ar, snd ar ++ t)) (first_match rs (s ++ t)) (sfirst rs s).
Proof.
  induction rs as [|[r a] rs IH]; cbn [first_match sfirst]; intros s; [reflexivity|].
  unfold match_prefix.
  pose proof (smatch_sound r _ _ (fun rest => rest ++ t) t s (fun s' => Some s') (fun s' => Yes s')
                (fun _ => eq_refl)) as K.
  destruct (smatch r s (fun s' => Yes s')); cbn [agrees] in K |- *; [now rewrite K| |exact I].
  rewrite K. apply IH.
Qed.

(* one iteration that yields a token and leaves the lexer state alone: a rule
   returning its match or a keyword, or a literal character *)
Definition slex_step (c : N) (s' : list N) : tri (N * list N * list N) :=
  let s := c :: s' in
  if in_ranges c (map (fun x => (x, x)) lexignore) then Dunno
  else match sfirst rules s with
  | Yes (ARet ty, rest) => Yes (ty, firstn_len s rest, rest)
  | Yes (AKeyword ty, rest) =>
      let w := firstn_len s rest in
      Yes (match assoc_str w keywords with Some k => k | None => ty end, w, rest)
  | No => match assoc_chr c literal_chars with Some ty => Yes (ty, [c], s') | None => Dunno end
  | _ => Dunno
  end.

Lemma slex_step_sound c s' ty w rest :
  slex_step c s' = Yes (ty, w, rest) ->
  forall st t, lex_step st c (s' ++ t) = SPiece (PTok ty w (lineno st) (loc_of st)) st (rest ++ t).
Proof.
  intros H st t. unfold slex_step in H. unfold lex_step.
  destruct (in_ranges c (map (fun x => (x, x)) lexignore)); [discriminate|].
  pose proof (sfirst_sound t rules (c :: s')) as K. cbn [app] in K.
  destruct (sfirst rules (c :: s')) as [[a rest0]| |]; [| |discriminate]; cbn [agrees fst snd] in K; rewrite K.
  - change (c :: s' ++ t) with ((c :: s') ++ t). rewrite firstn_len_tail.
    destruct a; try discriminate; injection H as <- <- <-; reflexivity.
  - destruct (assoc_chr c literal_chars); [|discriminate]. injection H as <- <- <-. reflexivity.
Qed.

Definition pieces (st : lstate) (s : list N) : list piece := fst (lex_loop (length s) st s).

Lemma pieces_step st c s' p st' rest :
  lex_step st c s' = SPiece p st' rest -> pieces st (c :: s') = p :: pieces st' rest.
Proof.
  intros Es. unfold pieces. cbn [length lex_loop]. rewrite Es. apply lex_step_shorter in Es.
  rewrite (lex_loop_fuel (length s') (length rest)) by lia. now destruct lex_loop.
Qed.

Definition pviews (ps : list piece) : list (N * list N) :=
  flat_map (fun p => match p with PTok ty w _ _ => [(ty, w)] | _ => [] end) ps.

(* the tokens that come out of [s] before the lexer stands at its suffix [stop] *)
Fixpoint shead (fuel : nat) (s stop : list N) : option (list (N * list N)) :=
  if list_eqb s stop then Some [] else
  match fuel, s with
  | S f, c :: s' =>
      match slex_step c s' with
      | Yes (ty, w, rest) => option_map (cons (ty, w)) (shead f rest stop)
      | _ => None
      end
  | _, _ => None
  end.

Lemma shead_sound st t stop : forall fuel s ws,
  shead fuel s stop = Some ws -> pviews (pieces st (s ++ t)) = ws ++ pviews (pieces st (stop ++ t)).
Proof.
  induction fuel as [|f IH]; intros s ws H; cbn [shead] in H;
    destruct (list_eqb_spec s stop) as [->|_]; try (now injection H as <-); [discriminate|].
  (* s = stop is closed under both fuels; of s <> stop, fuel 0 has H : None = Some ws and S f is left *)
  destruct s as [|c s']; [discriminate|].
  destruct (slex_step c s') as [[[ty w] rest]| |] eqn:Es; try discriminate.
  destruct (shead f rest stop) as [ws'|] eqn:Ew; [|discriminate]. injection H as <-.
  cbn [app]. rewrite (pieces_step _ _ _ _ _ _ (slex_step_sound _ _ _ _ _ Es st t)).
  cbn [pviews flat_map app]. f_equal. now apply IH.
Qed.
