(* C04 -- The visitor callback stream is a well-formed, complete traversal. *)
From Coq Require Import NArith List.
Import ListNotations.
From CXV Require Import Parse.BlocksSM Parse.BlocksThms.
From CXV Require Import Parse.VisitorThms.
Open Scope N_scope.

(* on_parse_start first and once; start/end properly nested; each end matches
   the most recent open start (id and kind); each start's parent is the
   innermost open block; every other callback carries the innermost open
   block's state; and the blocks still open in the stream are exactly the
   blocks still open in the source (every closed block was ended) *)
Theorem stream_wellformed :
  forall evs : list ev,
    st (run noskip evs) = Running ->
    exists tail, stream (run noskip evs) = CbParseStart 0 :: tail /\
      wf [(0, KNs)] tail = Some (map fk (cur (run noskip evs))).
Proof. exact stream_wellformed_run. Qed.

Print Assumptions stream_wellformed.

(* "the result of the simple API is exactly the fold of this stream: each payload stored once, in order, in the scope of its
   state" -- on the collecting visitor as translated from simple.py (Gen/VisitorTable.v, regenerated on every run): every
   payload-carrying callback of the protocol is implemented as exactly ONE append of its payload to a list of the scope of its
   state (file-level: of the parsed data), every callback of the protocol has such a row, and no two callbacks share a list *)
Theorem every_payload_is_appended_once_to_the_scope_of_its_state : all_translated = true.
Proof. exact all_translated_true. Qed.
Theorem collecting_visitor_covers_the_protocol : covers_protocol = true.
Proof. exact covers_protocol_true. Qed.
Theorem no_two_callbacks_share_a_list : item_fields_distinct = true.
Proof. exact item_fields_distinct_true. Qed.
Print Assumptions every_payload_is_appended_once_to_the_scope_of_its_state.
Print Assumptions collecting_visitor_covers_the_protocol.
Print Assumptions no_two_callbacks_share_a_list.

Example c04_nonvacuous :
  st (run noskip [EvOpen KNs 0; EvOpen KClass 1; EvItem 16; EvClose; EvItem 1; EvClose]) = Running.
Proof. vm_compute. reflexivity. Qed.
