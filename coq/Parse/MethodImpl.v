(* Hand-written mirror of how a method DEFINITION OUTSIDE ITS CLASS is read at
   namespace scope: specifiers and return type (_parse_type, validate(var_ok,
   meth_ok = false)), the pointer / reference part, the qualified name
   `A::B::m` (_parse_pqname, Parse/PQName.v pq_loop: names without template
   arguments), '(' and then _parse_function on its method path (a name of several
   segments): parameters, _parse_method_end, and -- outside a class, without a
   template header -- the body is mandatory.  The statement ends with the body.
   Constructors / destructors (`S::S()`, the qualified name is then read as the
   TYPE) are outside this model.
   Tied to the code by the differential run of harness/props/c01.py. *)
From Coq Require Import NArith List Arith.
Import ListNotations.
From CXV Require Import Gen.TokTy Parse.BalancedThms Parse.Declarator Parse.DeclSpec Parse.DeclThms Parse.EnumList Parse.Specs
  Parse.MethodTail Parse.MemberStmt Parse.PQName.
Open Scope N_scope.

Record mimpl := mkMI { mi_mods : mods; mi_segs : list seg; mi_ret : ty; mi_params : list (ty * option N); mi_vararg : bool; mi_tail : mtail }.

Definition method_impl_stmt (fuel : nat) (toks : list tk) : dres (mimpl * list tk) :=
  match parse_specs toks with
  | DErr e => DErr e
  | DOk (m, b, r) =>
      if auto_next r then DErr 4
      else if negb (validate true false m) then DErr 3
      else
        match cvptr fuel (TBase b (m_const m) (m_volatile m)) r with
        | DErr e => DErr e
        | DOk (d, r1) =>
            if is_fn d then DErr 3
            else
              match r1 with
              | t :: r2 =>
                  if is T_NAME t then
                    match pq_loop (S (length r2)) [] t r2 with
                    | DErr e => DErr e
                    | DOk (segs, r3) =>
                        if Nat.ltb (length segs) 2 then DErr 4          (* a plain function: Parse/DeclStmt.v *)
                        else
                          match r3 with
                          | lp :: r4 =>
                              if is LP lp then
                                match params fuel r4 with
                                | DErr e => DErr e
                                | DOk (ps, va, r5) =>
                                    match parse_method_end r5 with
                                    | DErr e => DErr e
                                    | DOk (q, r6) =>
                                        if q_body q then DOk (mkMI m segs d ps va q, r6)
                                        else DErr 1                      (* expected: Method body *)
                                    end
                                end
                              else DErr 4                                (* a variable with a qualified name *)
                          | [] => DErr 4
                          end
                    end
                  else DErr 4
              | [] => DErr 4
              end
        end
  end.

Definition qual_toks (n : N) (q : list N) : list tk := mkTk T_NAME n :: flat_map (fun m => [ktok T_DBL_COLON; mkTk T_NAME m]) q.

Theorem method_impl_roundtrip pre post b ls n q ps va quals soup rest :
  forallb spec_kw pre = true -> forallb spec_kw post = true ->
  has T_explicit (pre ++ post) = false -> has T_virtual (pre ++ post) = false ->
  forallb is_pfx ls = true -> legalL KB ls = true -> q <> [] ->
  layer_ok (LFn ps va) -> Forall mq_ok quals -> bal tk kty LBRACE RBRACE soup ->
  let m := apply_kws (pre ++ post) mods0 in
  let t := wrap (TBase b (m_const m) (m_volatile m)) ls in
  ev (fun f => method_impl_stmt f (kw_toks pre ++ nm_tok b :: kw_toks post ++ P ls [] ++ qual_toks n q ++
                                   ktok LP :: params_toks ps va ++ ktok RP :: flat_map mq_toks quals ++ mend_toks (MeBody soup) ++ rest))
     (DOk (mkMI m (SName n :: map SName q) t ps va (apply_end (MeBody soup) (quals_of quals)), rest)).
Proof.
  intros Hpre Hpost Hex Hvi Hpf Hleg Hq [_ Hprm] Hqs Hbal m t.
  set (Z := ktok LP :: params_toks ps va ++ ktok RP :: flat_map mq_toks quals ++ mend_toks (MeBody soup) ++ rest).
  pose proof (spec_kws_app pre post Hpre Hpost) as Hk.
  eapply (typed_stmt_rt false _ pre post b ls (qual_toks n q ++ Z)); try assumption; try reflexivity.  (* by conversion: MemberStmt.typed_stmt *)
  { now apply validate_ns_fn. }
  cbn beta. unfold qual_toks. cbn [app]. isc.
  rewrite (pq_loop_names q n [] Z); [|apply le_n|unfold Z, name_stop; now split].
  cbn [rev app]. replace (Nat.ltb (length (SName n :: map SName q)) 2) with false by (destruct q; [contradiction|reflexivity]).
  unfold Z. isc. eapply ev_bind; [apply Hprm|]. cbn beta iota.
  rewrite (parse_method_end_roundtrip quals (MeBody soup) rest Hqs Hbal). fold (quals_of quals). rewrite q_body_end.
  apply ev_const.
Qed.
