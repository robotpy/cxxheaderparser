(* Cost twins of Parse/Balanced.v's consume and discard (C07).  consume_cost: one unit per token read plus, at a closer
   that sets off the tolerance search, the whole length of the match stack below the top (an upper bound on what the
   search visits: it may break early).  discard_cost: one unit per token read.  Each with its bound. *)
From Coq Require Import NArith List Bool Lia.
Import ListNotations.
From CXV Require Import Gen.ParserTables Parse.Balanced.
Open Scope N_scope.

Section Cost.
  Variable T : Type.
  Variable ty : T -> N.

  Fixpoint consume_cost (stack : list N) (toks : list T) : nat :=
    match toks with
    | [] => 0%nat
    | t :: r =>
        S (if memN (ty t) end_balanced_tokens then
             match stack with
             | [] => 0%nat
             | expected :: st =>
                 if ty t =? expected then
                   match st with [] => 0%nat | _ => consume_cost st r end
                 else if negb (ty t =? GT) && negb (expected =? GT) then 0%nat
                 else if ty t =? GT then consume_cost stack r
                 else
                   (length st +
                    match pop_through (ty t) st with
                    | Some st' => match st' with [] => 0%nat | _ => consume_cost st' r end
                    | None => consume_cost stack r
                    end)%nat
             end
           else
             match assocN (ty t) balanced_token_map with
             | Some c => consume_cost (c :: stack) r
             | None => consume_cost stack r
             end)
    end.

  Lemma pop_through_len x : forall st st', pop_through x st = Some st' -> (length st' < length st)%nat.
  Proof.
    induction st as [|y r IH]; intros st' H; cbn [pop_through] in H; [discriminate|].
    destruct (x =? y); [inversion H; subst; cbn; lia|]. apply IH in H. cbn; lia.
  Qed.

  Theorem consume_cost_bound : forall toks stack,
    (consume_cost stack toks <= length toks * (1 + length stack + length toks))%nat.
  Proof.
    induction toks as [|t r IH]; intros stack; cbn [consume_cost length]; [lia|].
    destruct (memN (ty t) end_balanced_tokens).
    - destruct stack as [|e st]; [cbn; nia|].
      destruct (ty t =? e).
      + destruct st as [|y st0]; [cbn; nia|]. specialize (IH (y :: st0)). cbn [length] in *. nia.
      + destruct (negb (ty t =? GT) && negb (e =? GT)); [nia|].
        destruct (ty t =? GT).
        * specialize (IH (e :: st)). cbn [length] in *. nia.
        * destruct (pop_through (ty t) st) as [st'|] eqn:Ep.
          -- apply pop_through_len in Ep.
             destruct st' as [|y st0]; [cbn [length] in *; nia|].
             specialize (IH (y :: st0)). cbn [length] in *. nia.
          -- specialize (IH (e :: st)). cbn [length] in *. nia.
    - destruct (assocN (ty t) balanced_token_map).
      + specialize (IH (n :: stack)). cbn [length] in *. nia.
      + specialize (IH stack). nia.
  Qed.

  (* _discard_contents: one unit per token read, at most the whole input *)
  Fixpoint discard_cost (s e : N) (level : nat) (toks : list T) : nat :=
    match toks with
    | [] => 0%nat
    | t :: r =>
        S (if ty t =? s then discard_cost s e (S level) r
           else if ty t =? e then
                  match level with
                  | O => 0%nat | S O => 0%nat | S l => discard_cost s e l r
                  end
                else discard_cost s e level r)
    end.

  Theorem discard_cost_linear s e : forall toks level, (discard_cost s e level toks <= length toks)%nat.
  Proof.
    induction toks as [|t r IH]; intros level; cbn [discard_cost length]; [lia|].
    destruct (ty t =? s); [specialize (IH (S level)); lia|].
    destruct (ty t =? e); [|specialize (IH level); lia].
    destruct level as [|[|l]]; try lia. specialize (IH (S l)). lia.
  Qed.
End Cost.
