(* The vendor-attribute consumers as translated (regenerated, Gen/Dispatch.v: _consume_attribute,
   _consume_gcc_attribute, _consume_declspec), run by the interpreter of Parse/DispatchLang.v on symbolic
   remainders: each consumer takes exactly its parenthesized group (any strict-nested soup), and the dispatcher
   hands every attribute introducer to its own consumer without consuming anything. *)
From Coq Require Import NArith List.
Import ListNotations.
From CXV Require Import Gen.TokTy Gen.ParserTables Parse.Balanced Parse.BalancedThms Parse.Declarator Parse.DispatchLang Gen.Dispatch.
Open Scope N_scope.

Lemma consume_balanced_two (a1 a2 b1 b2 : tk) soup rest :
  kty a1 = T_LIT_40 -> kty a2 = T_LIT_40 -> kty b1 = T_LIT_41 -> kty b2 = T_LIT_41 -> SN tk kty soup ->
  consume_balanced kty [a1; a2] (soup ++ b1 :: b2 :: rest) = Ok (a1 :: a2 :: soup ++ [b1; b2], rest).
Proof.
  intros A1 A2 B1 B2 Hs. unfold consume_balanced. cbn [map rev app]. rewrite A1, A2.
  change (assocN T_LIT_40 balanced_token_map) with (Some T_LIT_41). cbn [app].
  rewrite (consume_group_closed tk kty T_LIT_41 b1 soup) by (assumption || discriminate || reflexivity).
  cbn [closed]. rewrite (consume_pop tk kty T_LIT_41 b2) by (assumption || reflexivity).
  cbn [closed rev]. rewrite rev_rev_append. cbn [rev app]. now rewrite <- !app_assoc.
Qed.

(* __attribute__ (( soup )) *)
Theorem gcc_attribute_skipped_exactly kw a1 a2 b1 b2 soup R ic :
  kty a1 = T_LIT_40 -> kty a2 = T_LIT_40 -> kty b1 = T_LIT_41 -> kty b2 = T_LIT_41 -> SN tk kty soup ->
  run prog_consume_gcc_attribute ic kw (a1 :: a2 :: soup ++ b1 :: b2 :: R) = ODone R.
Proof.
  intros A1 A2 B1 B2 Hs. unfold run, prog_consume_gcc_attribute. cbn [exec_block exec].
  rewrite A1. change (memN T_LIT_40 [T_LIT_40]) with true. cbn iota. rewrite A2.
  change (memN T_LIT_40 [T_LIT_40]) with true. cbn iota.
  cbn [flat_map lookup N.eqb Pos.eqb app length Nat.eqb negb].
  rewrite (consume_balanced_two a1 a2 b1 b2 soup R A1 A2 B1 B2 Hs). reflexivity.
Qed.

(* __declspec ( soup ) *)
Theorem declspec_skipped_exactly kw a b soup R ic :
  kty a = T_LIT_40 -> kty b = T_LIT_41 -> SN tk kty soup ->
  run prog_consume_declspec ic kw (a :: soup ++ b :: R) = ODone R.
Proof.
  intros A B Hs. unfold run, prog_consume_declspec. cbn [exec_block exec].
  rewrite A. change (memN T_LIT_40 [T_LIT_40]) with true. cbn iota.
  cbn [flat_map lookup N.eqb Pos.eqb app length Nat.eqb negb].
  rewrite (consume_balanced_exact tk kty a b T_LIT_41 soup R); [reflexivity|rewrite A; reflexivity|discriminate|exact B|exact Hs].
Qed.

Theorem attribute_dispatch kw R ic :
  run prog_consume_attribute ic kw R =
    if kty kw =? T___attribute__ then OCall F_gcc_attribute [RTok (Some kw)] [] R
    else if kty kw =? T___declspec then OCall F_declspec [RTok (Some kw)] [] R
    else if memN (kty kw) attribute_specifier_seq_start_types then OCall F_attribute_specifier_seq [RTok (Some kw)] [] R
    else OErr 3.
Proof.
  unfold run, prog_consume_attribute. cbn [exec_block exec eval_cond lookup N.eqb].
  destruct (kty kw =? T___attribute__); [reflexivity|].
  destruct (kty kw =? T___declspec); [reflexivity|].
  change [T_DBL_LBRACKET; T_alignas] with attribute_specifier_seq_start_types.
  destruct (memN (kty kw) attribute_specifier_seq_start_types); reflexivity.
Qed.
