(* Template arguments: the hand-written mirror of
   CxxParser._parse_template_specialization -- each argument's tokens are read
   up to ',' '>' or '...', tried as a type-id (base type, declarator, optional
   array suffix, nothing left over) and kept as a raw value when that fails --
   and its round trip.  The trial runs the pointer / cv / group loop of
   Parse/Declarator.v with nonptr_fn set (cvptr_g true: a parenthesis that does
   not open a declarator group opens the parameter list of a plain function
   type); what that loop does on a printed declarator is stated here for either
   flag (cvptr_P_gen).
   Tied to the code by the differential run of harness/props/c02.py (the real
   _parse_template_specialization on the same token lists) and the digest pin of
   Gen/PinsC02.v. *)
From Coq Require Import NArith List Bool Lia.
Import ListNotations.
From CXV Require Import Gen.TokTy Gen.ParserTables Parse.Balanced Parse.BalancedThms Parse.Declarator Parse.DeclSpec Parse.DeclThms Parse.Using.
Open Scope N_scope.

(* the layer-level statement: whatever the loop does from the point where only suffix layers are left, it does
   from the start of the printed declarator *)
Lemma cvptr_P_gen nf : forall n ls, (length ls <= n)%nat -> forall acc core rest dE rE,
  legalL (kind_of acc) ls = true -> Forall layer_ok ls -> SNk core ->
  stops (P (traill ls) core ++ rest) = true -> nolb rest = true ->
  ev (fun f => cvptr_g nf f (wrap acc (mainl ls)) (P (traill ls) core ++ rest)) (DOk (dE, rE)) ->
  stops rE = true ->
  ev (fun f => cvptr_g nf f acc (P ls core ++ rest)) (DOk (dE, rE)).
Proof.
  intros n ls _ acc core rest dE rE.
  pose proof (loop_layers nf _ (mainl ls) (le_n _) (traill ls) acc core rest dE rE (mainl_ends ls)) as H.
  rewrite (main_trail ls) in H. exact H.
Qed.

Definition PHONYK : N := 9999.             (* PhonyEnding: not a token type of the lexer *)
Definition phony : tk := mkTk PHONYK 0.
Definition targ_terms : list N := [COMMA; GT; T_ELLIPSIS].

Inductive targ := AType (t : ty) (pack : bool) | AVal (v : list tk) (pack : bool).

Definition type_start (h : tk) : bool := memN (kty h) pqname_start_tokens || is T_const h || is T_volatile h.

(* CxxParseError inside the trial (codes 1, 2: the bounded stream raises it at its end too; "arrays of references are illegal"
   is a CxxParseError at the '[' and has code 1) means: not a type.  Code 3 inside the trial is an assertion of the
   implementation, which the trial does not catch *)
Definition soft (e : N) : dres (option ty) := if (e =? 1) || (e =? 2) then DOk None else DErr e.

Definition targ_type (fuel : nat) (raw : list tk) : dres (option ty) :=
  match raw with
  | [] => DOk None
  | h :: _ =>
      if negb (type_start h) then DOk None
      else if alias_outside raw then DErr 4
      else
        match parse_base (raw ++ [phony]) with
        | DErr e => soft e
        | DOk (b, r) =>
            match cvptr_g true fuel b r with
            | DErr e => soft e
            | DOk (d, r1) =>
                let after := if is_fn d then DOk (d, r1)
                             else match r1 with
                                  | a :: r2 => if is LB a then arrtype fuel d a r2 else DOk (d, r1)
                                  | [] => DOk (d, r1)
                                  end in
                match after with
                | DErr e => soft e
                | DOk (d', r2) =>
                    match r2 with
                    | [p] => if is PHONYK p then DOk (Some d') else DOk None
                    | _ => DOk None
                    end
                end
            end
        end
  end.

Lemma targ_type_some fuel raw b r d r1 t :
  (exists h q, raw = h :: q /\ type_start h = true) -> alias_outside raw = false ->
  parse_base (raw ++ [phony]) = DOk (b, r) -> cvptr_g true fuel b r = DOk (d, r1) ->
  (if is_fn d then DOk (d, r1)
   else match r1 with
        | a :: r2 => if is LB a then arrtype fuel d a r2 else DOk (d, r1)
        | [] => DOk (d, r1)
        end) = DOk (t, [phony]) ->
  targ_type fuel raw = DOk (Some t).
Proof.
  intros (h & q & -> & Hs) Ho Hb Hc Ha. unfold targ_type. rewrite Hs, Ho, Hb, Hc, Ha. reflexivity.
Qed.

(* the argument loop (entered after '<') *)
Fixpoint tspec (n fuel : nat) (acc : list targ) (toks : list tk) {struct n} : dres (list targ * list tk) :=
  match n with
  | O => DErr 9
  | S n' =>
      match consume_value_until kty targ_terms toks with
      | Ok (raw, r) =>
          match targ_type fuel raw with
          | DErr e => DErr e
          | DOk ot =>
              let '(pack, r1) := match r with
                                 | e :: r' => if is T_ELLIPSIS e then (true, r') else (false, r)
                                 | [] => (false, r)
                                 end in
              let arg : dres targ :=
                match ot with
                | Some t => DOk (AType t pack)
                | None =>
                    if pack then
                      match rev raw with
                      | [] => DErr 3                                (* val.tokens[-1] of an empty value *)
                      | l :: _ => if is T_sizeof l then DErr 4 else DOk (AVal raw pack)    (* sizeof...(x): outside *)
                      end
                    else DOk (AVal raw pack)
                end in
              match arg with
              | DErr e => DErr e
              | DOk a =>
                  match r1 with
                  | s :: r2 => if is COMMA s then tspec n' fuel (a :: acc) r2
                               else if is GT s then DOk (rev (a :: acc), r2)
                               else DErr 1
                  | [] => DErr 2
                  end
              end
          end
      | ErrEOF => DErr 2
      | ErrUnexpected _ => DErr 1
      | ErrInternal => DErr 3
      end
  end.

Local Notation Ex := (Expr tk kty targ_terms).

Definition plain_t (c : N) : bool := negb (memN c targ_terms) && plain c.

Lemma Ex_tok t l : plain_t (kty t) = true -> Ex l -> Ex (t :: l).
Proof.
  unfold plain_t. intros H Hl. apply andb_prop in H as [H1 H]. apply negb_true_iff in H1.
  destruct (plain_spec _ H) as [H2 H3]. apply Ex_plain; [exact H1|exact H3|now rewrite H2|exact Hl].
Qed.

Lemma Ex_cvtoks c v l : Ex l -> Ex (cvtoks c v ++ l).
Proof. intros H. destruct c, v; cbn [cvtoks app]; repeat (apply Ex_tok; [reflexivity|]); exact H. Qed.

Lemma Ex_group_tok o c inner l :
  assocN o balanced_token_map = Some c -> c <> GT -> memN o targ_terms = false ->
  SNk inner -> Ex l -> Ex (ktok o :: inner ++ ktok c :: l).
Proof. intros Ho Hc Hm Hs Hl. now apply (Ex_group tk kty targ_terms (ktok o) (ktok c) c). Qed.

Lemma Ex_paren_if p inner l : Ex inner -> Ex l -> Ex (paren p inner ++ l).
Proof.
  intros Hi Hl. destruct p; cbn [paren]; [|now apply Expr_app]. apply Expr_SN in Hi.
  cbn [app]. rewrite <- app_assoc. now apply (Ex_group_tok LP RP).
Qed.

Lemma Ex_P : forall ls core, Forall layer_ok ls -> Ex core -> Ex (P ls core).
Proof.
  induction ls as [|l r IH]; intros core Hok Hc; [exact Hc|].
  inversion Hok as [|? ? Hl Hr]; subst.
  destruct l as [c v| | |s|ps va]; cbn [P].
  - apply Ex_tok; [reflexivity|]. apply Ex_cvtoks. now apply IH.
  - apply Ex_tok; [reflexivity|]. now apply IH.
  - apply Ex_tok; [reflexivity|]. now apply IH.
  - apply Ex_paren_if; [now apply IH|].
    apply (Ex_group_tok LB RB); [reflexivity|discriminate|reflexivity|exact Hl|constructor].
  - apply Ex_paren_if; [now apply IH|].
    apply (Ex_group_tok LP RP); [reflexivity|discriminate|reflexivity|exact (proj1 Hl)|constructor].
Qed.

(* the printed declarator is one expression of the value grammar: consume_value_until reads it whole (item_value) *)
Lemma Ex_decl t : wf t -> Ex (decl_toks t None).
Proof.
  intros Hwf. destruct (decl_view t None) as (b & c & v & Ed & _). rewrite Ed. unfold base_toks3, name_tok.
  rewrite <- app_assoc. apply Ex_cvtoks. cbn [app].
  assert (Hp : Ex (P (layers t) (name_toks None))).
  { apply Ex_P; [now apply wf_layers|constructor]. }
  destruct (b =? 0); (apply Ex_tok; [reflexivity|exact Hp]).
Qed.

(* with the flag set a parameter list, where the loop would stop (params_stops), is read and makes d a function type *)
Lemma loop_fn_layer d ps va rest :
  is_fn d = false -> layer_ok (LFn ps va) ->
  stops rest = true -> lp_head rest = false -> hd_out [T_ARROW] rest = true ->
  ev (fun f => cvptr_g true f d (ktok LP :: params_toks ps va ++ ktok RP :: rest)) (DOk (TFn d ps va, rest)).
Proof.
  intros Hnf [_ Hprm] Hst Hlp Har.
  apply ev_next, (ev_with (Hprm rest)), (ev_with (ev_stops_g true rest (TFn d ps va) Hst Hlp)), ev_always. intros f E2 E1.
  cbn [cvptr_g]. isc.
  (* the token h behind the `(` starts a parameter or is `)`: no prefix operator, so this is no declarator group, and
     no `(`, so strip_parens removes nothing *)
  destruct (params_head (fun t => negb (is_pfx_tok t || is LP t)) ps va rest) as (h & r & Eh & H); try reflexivity.
  apply negb_true_iff, orb_false_elim in H as [Hp Hl]. rewrite Eh. rewrite Hp.
  cbn [strip_parens]. rewrite Hl. rewrite <- Eh. rewrite E1, Hnf.
  destruct rest as [|a r']; [exact E2|]. now rewrite (hd_out_is _ _ _ _ Har).
Qed.

Lemma phony_stops : stops [phony] = true /\ lp_head [phony] = false /\ nolb [phony] = true /\ nocv [phony] = true.
Proof. repeat split. Qed.

(* a function type at the top: with the flag set the loop takes the parameter list as well *)
Lemma loop_fn_top acc m ps va rest :
  legalL (kind_of acc) (m ++ [LFn ps va]) = true -> Forall layer_ok (m ++ [LFn ps va]) -> ends_pfx m -> is_fn acc = false ->
  stops rest = true -> lp_head rest = false -> nolb rest = true ->
  hd_out [T_ARROW] rest = true ->
  ev (fun f => cvptr_g true f acc (P (m ++ [LFn ps va]) [] ++ rest)) (DOk (TFn (wrap acc m) ps va, rest)).
Proof.
  intros Hleg Hok He Hnf Hst Hlp Hnl Har.
  assert (Hlfn : layer_ok (LFn ps va)).
  { apply Forall_app in Hok as [_ Hok]. now inversion Hok. }
  apply (loop_layers true _ m (le_n _) [LFn ps va]); try assumption; try reflexivity.
  - constructor.
  - cbn [P paren starts_pfx app]. rewrite <- app_assoc. apply params_stops.
  - cbn [P paren starts_pfx app]. rewrite <- app_assoc. cbn [app].
    apply loop_fn_layer; try assumption. now apply wrap_ends_pfx.
Qed.

Theorem targ_type_decodes t : wf t ->
  ev (fun f => targ_type f (decl_toks t None)) (DOk (Some t)).
Proof.
  intros Hwf. destruct (decl_view t None) as (b & c & v & Ed & Ew).
  destruct (wf_layers t Hwf) as [Hleg Hok].
  assert (Hout : alias_outside (decl_toks t None) = false).
  { rewrite <- (app_nil_r (decl_toks t None)). now apply alias_outside_printed. }
  assert (Hhead : exists h r, decl_toks t None = h :: r /\ type_start h = true) by now apply decl_first.
  assert (Hpb : parse_base (decl_toks t None ++ [phony]) = DOk (TBase b c v, P (layers t) [] ++ [phony])).
  { rewrite Ed, <- app_assoc. now apply parse_base_printed. }
  destruct (is_fn t) eqn:Efn.
  - destruct t as [| | | | |r ps va]; try discriminate Efn.
    cbn [layers] in *. rewrite wrap_app in Ew. cbn [wrap fold_left wrap1] in Ew.
    assert (He : ends_pfx (layers r)).
    { apply (ends_pfx_of_kind KB). rewrite kind_layers. apply wf_fn in Hwf. tauto. }
    apply (ev_with (loop_fn_top (TBase b c v) (layers r) ps va [phony] Hleg Hok He eq_refl eq_refl eq_refl eq_refl eq_refl)), ev_always.
    intros f E. apply (targ_type_some f _ _ _ _ _ _ Hhead Hout Hpb E). now rewrite Ew.
  - assert (Hk : kind_end KB (layers t) <> KFn).
    { rewrite kind_layers. destruct t; discriminate. }
    destruct (declarator_arr true b c v (layers t) None [phony] Hleg Hok Hk eq_refl eq_refl eq_refl) as (d & X & H1 & Hnf & HX).
    rewrite Ew in HX. cbn [name_toks app] in H1.
    apply (ev_with H1), (ev_with (field_arr _ _ _ _ HX eq_refl)), ev_always. intros f E2 E1.
    apply (targ_type_some f _ _ _ _ _ _ Hhead Hout Hpb E1). now rewrite Hnf.
Qed.

Inductive warg := WType (t : ty) (pack : bool) | WVal (v : list tk) (pack : bool).
Definition araw (a : warg) : list tk := match a with WType t _ => decl_toks t None | WVal v _ => v end.
Definition apack (a : warg) : bool := match a with WType _ p | WVal _ p => p end.
Definition warg_toks (a : warg) : list tk := araw a ++ (if apack a then [ktok T_ELLIPSIS] else []).
Definition warg_out (a : warg) : targ := match a with WType t p => AType t p | WVal v p => AVal v p end.
Definition warg_ok (a : warg) : Prop :=
  match a with
  | WType t _ => DeclSpec.wf t
  | WVal v p =>
      Ex v /\ (match v with h :: _ => type_start h = false | [] => p = false end) /\
      (p = true -> match rev v with l :: _ => is T_sizeof l = false | [] => False end)
  end.

Fixpoint targs_toks (l : list warg) : list tk :=
  match l with
  | [] => []
  | [a] => warg_toks a
  | a :: q => warg_toks a ++ ktok COMMA :: targs_toks q
  end.

Lemma targs_join args : targs_toks args = join_comma (map warg_toks args).
Proof. induction args as [|x [|y r] IH]; [reflexivity|reflexivity|]. cbn [map] in *. now rewrite join_cons2, <- IH. Qed.

Lemma araw_Ex a : warg_ok a -> Ex (araw a).
Proof. destruct a as [t p|v p]; cbn [warg_ok araw]; [apply Ex_decl|intros (H & _); exact H]. Qed.

Lemma item_value a (cm : bool) R : warg_ok a ->
  consume_value_until kty targ_terms (warg_toks a ++ ktok (if cm then COMMA else GT) :: R)
  = Ok (araw a, (if apack a then [ktok T_ELLIPSIS] else []) ++ ktok (if cm then COMMA else GT) :: R).
Proof.
  intros Hok. unfold warg_toks. rewrite <- app_assoc.
  apply value_is_whole; [now apply araw_Ex|].
  destruct (apack a), cm; reflexivity.
Qed.

Lemma item_type a : warg_ok a ->
  ev (fun f => targ_type f (araw a)) (DOk (match a with WType t _ => Some t | WVal _ _ => None end)).
Proof.
  destruct a as [t p|v p]; cbn [warg_ok araw].
  - apply targ_type_decodes.
  - intros (_ & Hh & _). apply ev_always. intros f. unfold targ_type.
    destruct v as [|h r]; [reflexivity|]. now rewrite Hh.
Qed.

Lemma item_step a (cm : bool) R f : warg_ok a ->
  targ_type f (araw a) = DOk (match a with WType t _ => Some t | WVal _ _ => None end) ->
  forall n acc,
    tspec (S n) f acc (warg_toks a ++ ktok (if cm then COMMA else GT) :: R) =
      if cm then tspec n f (warg_out a :: acc) R else DOk (rev (warg_out a :: acc), R).
Proof.
  intros Hok H0 n acc. cbn [tspec]. rewrite (item_value a cm R Hok), H0.
  destruct a as [t p|v p]; cbn [apack warg_out araw] in *.
  - destruct p, cm; reflexivity.
  - destruct Hok as (_ & _ & Hl). destruct p; cbn [app].
    + specialize (Hl eq_refl). destruct (rev v) as [|l rv]; [contradiction|]. destruct cm; isc; now rewrite Hl.
    + destruct cm; reflexivity.
Qed.

(* `< T1, T2..., v3 >` *)
Theorem tspec_rt : forall args acc rest n, args <> [] -> Forall warg_ok args -> (length args <= n)%nat ->
  ev (fun f => tspec n f acc (targs_toks args ++ ktok GT :: rest)) (DOk (rev acc ++ map warg_out args, rest)).
Proof.
  induction args as [|a q IH]; intros acc rest n Hne Hok Hn; [contradiction|].
  inversion Hok as [|? ? Ha Hq]; subst.
  destruct n as [|n]; [cbn in Hn; lia|]. cbn [length] in Hn.
  destruct q as [|a2 q'].
  - cbn [targs_toks]. apply (ev_with (item_type a Ha)), ev_always. intros f E.
    now rewrite (item_step a false rest f Ha E).
  - change (targs_toks (a :: a2 :: q')) with (warg_toks a ++ ktok COMMA :: targs_toks (a2 :: q')).
    rewrite <- app_assoc. cbn [app].
    pose proof (IH (warg_out a :: acc) rest n ltac:(discriminate) Hq ltac:(cbn [length] in *; lia)) as H1.
    cbn [rev] in H1. rewrite <- app_assoc in H1.
    apply (ev_with (item_type a Ha)), (ev_with H1), ev_always. intros f E2 E1.
    now rewrite (item_step a true _ f Ha E1).
Qed.

Example ex_targs :
  let fn := TFn (TBase 0 false false) [(TPtr (TBase 5 true false) false false, None)] false in
  tspec 4 30 [] (targs_toks [WType fn false; WVal [mkTk T_INT_CONST_DEC 3] false; WType (TRef (TBase 6 false false)) true] ++ [ktok GT; ktok SEMI])
  = DOk ([AType fn false; AVal [mkTk T_INT_CONST_DEC 3] false; AType (TRef (TBase 6 false false)) true], [ktok SEMI]).
Proof. vm_compute. reflexivity. Qed.
