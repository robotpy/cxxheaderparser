(* C18: convert_void_to_zero_params.  Source-level type trees carry the
   parameter lists as written; [build opt] is what _parse_parameters makes of
   them bottom-up (its conversion step is pinned by text in gen_facts.py and is
   the only reader of the option); [zero_void] is the documented effect. *)
From Coq Require Import NArith List Bool.
Import ListNotations.
Open Scope N_scope.

Inductive ty :=
| TName (segments : nat) (name : N) (cv : bool)   (* Type(PQName); name 0 = void *)
| TPtr (t : ty)
| TRef (t : ty)
| TArr (t : ty)
| TFn (ret : ty) (params : list (ty * bool)).       (* parameter type, has a name? *)

(* isinstance(p0_type, Type) and one segment and its name == "void" *)
Definition is_void (t : ty) : bool :=
  match t with TName 1 0 _ => true | _ => false end.

Definition convert (opt : bool) (ps : list (ty * bool)) : list (ty * bool) :=
  match ps with
  | [(t, _)] => if opt && is_void t then [] else ps
  | _ => ps
  end.

Fixpoint build (opt : bool) (t : ty) : ty :=
  match t with
  | TName s n c => TName s n c
  | TPtr t' => TPtr (build opt t')
  | TRef t' => TRef (build opt t')
  | TArr t' => TArr (build opt t')
  | TFn r ps => TFn (build opt r) (convert opt (map (fun p => (build opt (fst p), snd p)) ps))
  end.

Fixpoint zero_void (t : ty) : ty :=
  match t with
  | TName s n c => TName s n c
  | TPtr t' => TPtr (zero_void t')
  | TRef t' => TRef (zero_void t')
  | TArr t' => TArr (zero_void t')
  | TFn r ps => TFn (zero_void r) (convert true (map (fun p => (zero_void (fst p), snd p)) ps))
  end.

Section Ind.
  Variable P : ty -> Prop.
  Hypothesis HN : forall s n c, P (TName s n c).
  Hypothesis HP : forall t, P t -> P (TPtr t).
  Hypothesis HR : forall t, P t -> P (TRef t).
  Hypothesis HA : forall t, P t -> P (TArr t).
  Hypothesis HF : forall r ps, P r -> Forall (fun p => P (fst p)) ps -> P (TFn r ps).

  Fixpoint ty_params_ind (t : ty) : P t :=
    match t with
    | TName s n c => HN s n c
    | TPtr t' => HP t' (ty_params_ind t')
    | TRef t' => HR t' (ty_params_ind t')
    | TArr t' => HA t' (ty_params_ind t')
    | TFn r ps =>
        HF r ps (ty_params_ind r)
           ((fix go (l : list (ty * bool)) : Forall (fun p => P (fst p)) l :=
               match l with
               | [] => Forall_nil _
               | p :: l' => Forall_cons p (ty_params_ind (fst p)) (go l')
               end) ps)
    end.
End Ind.

Lemma build_off t : build false t = t.
Proof.
  induction t as [| | | |r ps IHr IHps] using ty_params_ind; cbn [build]; try congruence.
  rewrite IHr. f_equal. rewrite (map_ext_Forall _ (fun p => p)), map_id.
  - now destruct ps as [|[a b] [|q l]].
  - eapply Forall_impl; [|exact IHps]. intros [a b] Ep. cbn [fst snd] in *. now rewrite Ep.
Qed.

(* with the option on, [build] and [zero_void] are the same recursion *)
Lemma build_on t : build true t = zero_void t.
Proof.
  induction t as [| | | |r ps IHr IHps] using ty_params_ind; cbn [build zero_void]; try congruence.
  rewrite IHr. do 2 f_equal. apply map_ext_Forall.
  eapply Forall_impl; [|exact IHps]. intros p Ep. cbv beta in Ep. now rewrite Ep.
Qed.

Lemma is_void_build opt t : is_void (build opt t) = is_void t.
Proof. destruct t; reflexivity. Qed.
