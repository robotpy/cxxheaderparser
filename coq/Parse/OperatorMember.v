(* Hand-written mirror of how an overloaded-operator member is read inside a
   class body: specifiers and return type (_parse_type, validate), the pointer /
   reference part (_parse_cv_ptr), the name `operator <tokens>` (_parse_pqname
   -> _parse_pqname_name_operator, Parse/OpName.v), '(' and then _parse_function
   as for any method (parameters, _parse_method_end); without a body the
   statement must end with ';'.  One declarator per statement in this model.
   Tied to the code by the differential run of harness/props/c03.py. *)
From Coq Require Import NArith List.
Import ListNotations.
From CXV Require Import Gen.TokTy Parse.BalancedThms Parse.Declarator Parse.DeclSpec Parse.DeclThms Parse.EnumList Parse.Specs
  Parse.MethodTail Parse.MemberStmt Parse.OpName.
Open Scope N_scope.

Record opmember := mkOpM { om_mods : mods; om_op : list tk; om_ret : ty; om_params : list (ty * option N); om_vararg : bool; om_tail : mtail }.

Definition op_member_stmt (fuel : nat) (toks : list tk) : dres (opmember * list tk) :=
  match parse_specs toks with
  | DErr e => DErr e
  | DOk (m, b, r) =>
      if auto_next r then DErr 4
      else if negb (validate true true m) then DErr 3
      else
        match cvptr fuel (TBase b (m_const m) (m_volatile m)) r with
        | DErr e => DErr e
        | DOk (d, r1) =>
            if is_fn d then DErr 3
            else
              match r1 with
              | o :: r2 =>
                  if is T_operator o then
                    match op_name r2 with
                    | DErr e => DErr e
                    | DOk (parts, r3) =>
                        match r3 with
                        | lp :: r4 =>
                            if is LP lp then
                              match params fuel r4 with
                              | DErr e => DErr e
                              | DOk (ps, va, r5) =>
                                  match parse_method_end r5 with
                                  | DErr e => DErr e
                                  | DOk (q, r6) =>
                                      if q_body q then DOk (mkOpM m parts d ps va q, r6)
                                      else match r6 with
                                           | s :: r7 => if is SEMI s then DOk (mkOpM m parts d ps va q, r7) else DErr 1
                                           | [] => DErr 2
                                           end
                                  end
                              end
                            else DErr 1                       (* an operator name that is not followed by a parameter list *)
                        | [] => DErr 1
                        end
                    end
                  else DErr 4
              | [] => DErr 4
              end
        end
  end.

(* the written operator: `( )`, or a first token that is not '(' followed by tokens free of '(' and ';' *)
Inductive opspelling := OpCall | OpOther (t : tk) (parts : list tk).
Definition op_toks (o : opspelling) : list tk := match o with OpCall => [ktok LP; ktok RP] | OpOther t parts => t :: parts end.
Definition op_ok (o : opspelling) : Prop :=
  match o with
  | OpCall => True
  | OpOther t parts => is LP t = false /\ forallb (fun x => negb (op_stop x)) parts = true
  end.

Lemma op_name_rt o R : op_ok o -> op_name (op_toks o ++ ktok LP :: R) = DOk (op_toks o, ktok LP :: R).
Proof.
  destruct o as [|t parts]; cbn [op_toks op_ok app].
  - intros _. reflexivity.
  - intros [Ht Hp]. apply operator_name_exact; [exact Ht|exact Hp|reflexivity].
Qed.

Theorem op_member_roundtrip pre post b ls o ps va quals e rest :
  forallb spec_kw pre = true -> forallb spec_kw post = true ->
  forallb is_pfx ls = true -> legalL KB ls = true -> op_ok o ->
  layer_ok (LFn ps va) -> Forall mq_ok quals ->
  (match e with MeBody soup => bal tk kty LBRACE RBRACE soup | MeCtor _ _ => False | _ => True end) ->
  let m := apply_kws (pre ++ post) mods0 in
  let t := wrap (TBase b (m_const m) (m_volatile m)) ls in
  ev (fun f => op_member_stmt f (kw_toks pre ++ nm_tok b :: kw_toks post ++ P ls [] ++ ktok T_operator :: op_toks o ++
                                 ktok LP :: params_toks ps va ++ ktok RP :: flat_map mq_toks quals ++ mlast_toks e ++ rest))
     (DOk (mkOpM m (op_toks o) t ps va (apply_end e (quals_of quals)), rest)).
Proof.
  intros Hpre Hpost Hpf Hleg Hop [_ Hprm] Hq He m t.
  eapply (typed_stmt_rt true _ pre post b ls); try assumption; try reflexivity.  (* by conversion: MemberStmt.typed_stmt *)
  cbn beta. isc. rewrite (op_name_rt o _ Hop). isc. eapply ev_bind; [apply Hprm|]. cbn beta iota.
  rewrite (method_close (mkOpM _ _ _ _ _) quals e rest Hq He). apply ev_const.
Qed.
